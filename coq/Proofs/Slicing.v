(* For C13 (the slicing theorems are in Props/C13.v): exec_loop_x and run_slices.
   Also here, because everything about the entry points uses them: execute() cut into what happens before the instruction
   loop and after it (before_loop, after_loop, execute_eq) and state by state (exec_running, exec_error, exec_interrupt,
   exec_stopped), enter() by cases (enter_eq, rt_enter_cases), the key wait (key_wait_asks_again, key_wait_resumes), and
   what the CONT instruction restores (cont_restores). *)
From BL Require Import Base.Prelude Base.Floats Mach.Val Mach.Ops Mach.Func Mach.Var
     Lang.Token Lang.Lex Lang.Ast Lang.Parse Mach.Compile Mach.Listing Mach.Runtime.
From Coq Require Import Lia.
Local Open Scope N_scope.

Section Slicing.
Variable O : oracle.

(* execute_loop with the reason for stopping made visible: None = the instruction budget ran out *)
Fixpoint exec_loop_x (fuel : nat) (h : bool) : RM (option event) :=
  match fuel with
  | 0%nat => rret None
  | S f =>
      rdo r <~ rget ;;
      let tr := prog_line_for r (r_pc r) in
      let traced := r_tron r && line_changed tr (r_tr r) in
      rdo _ <~ (if traced then rmod (fun r => set_tr r tr) else rret tt) ;;
      match (if traced then tr else None) with
      | Some num =>
          let text := [91] ++ dec_of_N num ++ [93] in
          rdo _ <~ rmod (fun r => set_col r (r_col r + lenN text)) ;;
          rret (Some (EvPrint text))
      | None =>
          rdo e <~ one_op O h ;;
          match e with
          | Some ev => rret (Some ev)
          | None => exec_loop_x f h
          end
      end
  end.

Definition ev_or_running (x : option event) : event := match x with Some e => e | None => EvRunning end.

Fixpoint run_slices (qs : list nat) (h : bool) (r : rt) : rt * res (option event) :=
  match qs with
  | [] => (r, Ok None)
  | q :: rest => match exec_loop_x q h r with
                 | (r1, Ok None) => run_slices rest h r1
                 | other => other
                 end
  end.

Definition running_state (s : rstate) : bool := match s with StRunning | StInputRunning => true | _ => false end.

(* the `match &self.state` prelude of execute(): Some = the call returns this event at once *)
Definition before_loop (r : rt) : res (rt * option event) :=
  match r_state r with
  | StIntro => Ok (set_state r StStopped, Some (EvPrint intro_text))
  | StStopped => match ready_prompt r with
                 | (r', Some e) => Ok (r', Some e)
                 | (r', None) => Ok (r', Some EvStopped)
                 end
  | StInterrupt => Ok (set_state r (StRuntimeError (mkErr E_Break (cur_line r) (0, 0))), None)
  | StListing a b =>
      do ll <- list_line (r_listing r) a b;
      match ll with
      | Some (text, cols, (a', b')) => Ok (set_state r (StListing a' b'), Some (EvList text cols))
      | None => Ok (set_state r StRunning, None)
      end
  | StInput =>
      match execute_input r with
      | (r', Ok e) => Ok (r', Some e)
      | (r', Err e) => Ok (set_state r' (StRuntimeError (in_line e (cur_line r'))), None)
      | (_, Panic) => Panic
      | (_, Hang) => Hang
      end
  | StInputRedo => Ok (set_state r StInput, Some (EvErrors [mkErr E_Redo None (0, 0)]))
  | StInputRunning | StRunning =>
      match ls_dir_errors (r_listing r) with
      | _ :: _ => Ok (set_state r StStopped, Some (EvErrors (ls_dir_errors (r_listing r))))
      | [] => Ok (r, None)
      end
  | StInkey => Ok (r, Some EvInkey)
  | StRuntimeError _ => Ok (r, None)
  end.

(* an error (STOP and ?BREAK are errors) in state st: state and address go to the continuation slot, unless the error
   happened in the direct line or the stack is nearly full, in which case the stack is dropped and the slot stays empty *)
Definition save_error (r2 : rt) (e : error) (st : rstate) : rt :=
  let r3 := set_cont_pc (set_cont (set_state r2 (StRuntimeError (in_line e (cur_line r2)))) st) (r_pc r2) in
  if (r_entry r3 <=? r_pc r3) || stack_is_full r3 then set_cont (set_stack r3 []) StStopped else r3.

Lemma save_error_keeps r2 e st : r_pc r2 < r_entry r2 -> stack_is_full r2 = false ->
  save_error r2 e st = set_cont_pc (set_cont (set_state r2 (StRuntimeError (in_line e (cur_line r2)))) st) (r_pc r2).
Proof.
  intros Hpc Hf. unfold save_error. cbn [r_entry r_pc set_cont_pc set_cont set_state].
  destruct (N.leb_spec (r_entry r2) (r_pc r2)); [lia |].
  change (stack_is_full (set_cont_pc _ _)) with (stack_is_full r2). rewrite Hf. reflexivity.
Qed.

(* what execute() makes of the instruction loop's result *)
Definition after_loop (x : rt * res event) : res (rt * event) :=
  match x with
  | (r2, Ok ev) =>
      match r_state r2, ev with
      | StStopped, EvStopped =>
          match ready_prompt r2 with
          | (r3, Some e) => Ok (r3, e)
          | (r3, None) => Ok (r3, EvStopped)
          end
      | _, _ => Ok (r2, ev)
      end
  | (r2, Err e) =>
      match r_state r2 with
      | StInputRunning =>
          let '(s, a) := unwind_input (r_stack r2) in
          let r3 := set_stack r2 s in
          let r4 := match a with Some addr => set_pc r3 addr | None => r3 end in
          Ok (set_state r4 StInputRedo, EvRunning)
      | st => Ok (save_error r2 e st, EvRunning)
      end
  | (_, Panic) => Panic
  | (_, Hang) => Hang
  end.

(* the retry after an error while an INPUT reply is being stored: the stack is cut back to below the return address that
   accepting the reply had pushed *)
Lemma unwind_spec : forall above a below, (forall v, In v above -> match v with VRet _ => False | _ => True end) ->
  unwind_input (above ++ VRet a :: below) = (below, Some a).
Proof.
  induction above as [| v r IH]; intros a below H; cbn [app unwind_input]; [reflexivity |].
  pose proof (H v (or_introl eq_refl)) as Hv. destruct v; try contradiction; apply IH; intros w Hw; apply H; right; exact Hw.
Qed.

Lemma after_loop_ok : forall r2 ev, (r_state r2 = StStopped -> ev <> EvStopped) -> after_loop (r2, Ok ev) = Ok (r2, ev).
Proof.
  intros r2 ev H. cbn [after_loop]. destruct (r_state r2); try reflexivity.
  destruct ev; try reflexivity. exfalso. exact (H eq_refl eq_refl).
Qed.

Lemma execute_eq : forall r k,
  rt_execute O r k =
  do pr <- before_loop r;
  let '(r1, early) := pr in
  match early with
  | Some e => Ok (r1, e)
  | None =>
      match r_state r1 with
      | StRuntimeError e =>
          if 0 <? r_col r1 then Ok (set_col r1 0, EvPrint [c_nl]) else Ok (set_state r1 StStopped, EvErrors [e])
      | _ => after_loop (exec_loop O (N.to_nat k) (match ls_ind_errors (r_listing r1) with [] => false | _ => true end) r1)
      end
  end.
Proof.
  (* both sides are unfolded to the same text first: left to itself the conversion test takes seconds here *)
  intros r k. unfold rt_execute, before_loop, after_loop, save_error. cbv zeta. reflexivity.
Qed.

Lemma exec_running : forall r k, running_state (r_state r) = true -> ls_dir_errors (r_listing r) = [] ->
  rt_execute O r k =
  after_loop (exec_loop O (N.to_nat k) (match ls_ind_errors (r_listing r) with [] => false | _ => true end) r).
Proof.
  intros r k Hs Hd. rewrite execute_eq. unfold before_loop.
  destruct (r_state r) eqn:Est; try discriminate Hs; rewrite Hd; cbn [bind]; rewrite Est; reflexivity.
Qed.

Lemma exec_error : forall r k e, r_state r = StRuntimeError e ->
  rt_execute O r k =
  if 0 <? r_col r then Ok (set_col r 0, EvPrint [c_nl]) else Ok (set_state r StStopped, EvErrors [e]).
Proof. intros r k e H. rewrite execute_eq. unfold before_loop. rewrite H. cbn [bind]. rewrite H. reflexivity. Qed.

Lemma exec_interrupt : forall r k, r_state r = StInterrupt ->
  rt_execute O r k = rt_execute O (set_state r (StRuntimeError (mkErr E_Break (cur_line r) (0, 0)))) k.
Proof. intros r k H. rewrite !execute_eq. unfold before_loop. rewrite H. reflexivity. Qed.

Lemma ready_prompt_col0 r : r_entry r <> 0 -> r_col r = 0 ->
  ready_prompt r = (set_entry r 0, Some (EvPrint (match r_prompt r with [] => [] | p => p ++ [c_nl] end))).
Proof. intros He Hc. apply N.eqb_neq in He. unfold ready_prompt. rewrite He. cbn [negb r_col set_entry]. rewrite Hc. reflexivity. Qed.

Lemma exec_stopped : forall r k, r_state r = StStopped ->
  rt_execute O r k = match ready_prompt r with (r', Some e) => Ok (r', e) | (r', None) => Ok (r', EvStopped) end.
Proof.
  intros r k H. rewrite execute_eq. unfold before_loop. rewrite H. destruct (ready_prompt r) as [r' [e |]]; reflexivity.
Qed.

Theorem key_wait_asks_again : forall r k, r_state r = StInkey -> rt_execute O r k = Ok (r, EvInkey).
Proof. intros r k H. rewrite execute_eq. unfold before_loop. rewrite H. reflexivity. Qed.

(* enter() outside the two reply states: a line for the editor or for direct execution *)
Definition enter_line (r : rt) (s : str) : res (rt * bool) :=
  if MAX_LINE_LEN <? utf8_len s
  then Ok (set_state r (StRuntimeError (mkErr E_LineBufferOverflow None (0, 0))), false)
  else
    do l <- line_new s;
    match fst l with
    | None => match snd l with
              | [] => Ok (r, false)
              | _ => Ok (enter_direct r l, true)
              end
    | Some _ => do r' <- enter_indirect r l; Ok (r', false)
    end.

Lemma enter_eq : forall r s,
  rt_enter O r s = match r_state r with
                   | StInput => Ok (set_col (enter_input O r s) 0, true)
                   | StInkey => Ok (enter_inkey O r s, false)
                   | _ => enter_line r s
                   end.
Proof. intros r s. unfold rt_enter. destruct (r_state r); reflexivity. Qed.

Lemma rt_enter_cases (Q : rt -> Prop) r s r' b : rt_enter O r s = Ok (r', b) ->
  Q (set_col (enter_input O r s) 0) -> Q (enter_inkey O r s) ->
  Q (set_state r (StRuntimeError (mkErr E_LineBufferOverflow None (0, 0)))) -> Q r ->
  (forall l, Q (enter_direct r l)) -> (forall l r1, enter_indirect r l = Ok r1 -> Q r1) -> Q r'.
Proof.
  intros E Hin Hik Hov Hr Hd Hi. rewrite enter_eq in E.
  assert (Hrest : enter_line r s = Ok (r', b) -> Q r').
  { unfold enter_line. destruct (MAX_LINE_LEN <? utf8_len s); [intros E2; injection E2 as <- _; exact Hov |].
    destruct (line_new s) as [l | | |]; cbn [bind]; try discriminate.
    destruct (fst l).
    - destruct (enter_indirect r l) as [r1 | | |] eqn:Ei; cbn [bind]; intros E2; try discriminate. injection E2 as <- _. exact (Hi l r1 Ei).
    - destruct (snd l); intros E2; injection E2 as <- _; [exact Hr | apply Hd]. }
  destruct (r_state r); try exact (Hrest E); injection E as <- _; assumption.
Qed.

Theorem cont_restores : forall r st, r_cont r = st -> is_stopped st = false -> r_state r = StRunning ->
  fst (do_cont r) = set_pc (set_cont (set_state r st) StStopped) (r_cont_pc r)
  /\ snd (do_cont r) = Ok (if is_running st then None else Some EvRunning).
Proof.
  intros r st Hc Hs Hr. unfold do_cont, rbind, rget. rewrite Hc, Hs, Hr. cbn [is_running rmod].
  cbn [r_cont r_cont_pc r_state set_pc set_cont set_state]. rewrite Hc. destruct (is_running st); split; reflexivity.
Qed.

(* an interrupt taken while the program waits for a key, followed by CONT, comes back to the same wait with the same
   address and stack *)
Theorem key_wait_resumes : forall r k, r_state r = StRunning -> r_cont r = StInkey ->
  let r' := fst (do_cont r) in
  snd (do_cont r) = Ok (Some EvRunning) /\ r_state r' = StInkey /\ r_pc r' = r_cont_pc r /\ r_stack r' = r_stack r
  /\ r_vars r' = r_vars r /\ rt_execute O r' k = Ok (r', EvInkey).
Proof.
  intros r k Hr Hc. destruct (cont_restores r StInkey Hc eq_refl Hr) as [Hf Hs]. cbn zeta. rewrite Hf, Hs.
  split; [reflexivity |]. split; [reflexivity |]. split; [reflexivity |]. split; [reflexivity |]. split; [reflexivity |].
  apply key_wait_asks_again. reflexivity.
Qed.

End Slicing.
