(* Reasoning about actions of the VM monad RM without unfolding them.
   Two kinds of statement are carried through the opcodes of the VM: `hoare I J m` (from a state satisfying I the action m
   ends in I when it succeeds and in J when it reports an error -- the VM keeps its state on errors, so both matter; hoare3
   is the same with a precondition of its own) and `sim F m` (m does the same on a machine and on its image under a
   family F of state transformers).  Both are closed under the structure of the monad; `rm_closed` says so, and one tactic
   walks through any action built from ret / bind / failure / if / match, leaving the primitive actions to a tactic of the
   instance at hand. *)
From BL Require Import Base.Prelude Base.Floats Mach.Val Mach.Ops Mach.Var Mach.Compile Mach.Runtime.
Local Open Scope N_scope.

Record rm_closed (P : forall A, RM A -> Prop) : Prop := {
  c_ret : forall A (a : A), P A (rret a);
  c_bind : forall A B (m : RM A) (f : A -> RM B), P A m -> (forall a, P B (f a)) -> P B (rbind m f);
  (* a state-preserving action that may fail; rfail and rlift are of this form *)
  c_const : forall A (x : res A), P A (fun r => (r, x));
  c_ext : forall A (m m' : RM A), (forall r, m r = m' r) -> P A m' -> P A m
}.

Lemma closed_fold_push P (C : rm_closed P) {A} (l : list A) (g : A -> val) (m0 : RM unit) :
  (forall v, P _ (push v)) -> P _ m0 -> P _ (fold_left (fun m a => rbind m (fun _ => push (g a))) l m0).
Proof.
  intros Hp. revert m0. induction l as [| a l IH]; intros m0 H0; cbn [fold_left]; [exact H0 |].
  apply IH. apply (c_bind _ C); [exact H0 | intros _; apply Hp].
Qed.

Lemma rbind_ok {A B} (m : RM A) (f : A -> RM B) r r1 a : m r = (r1, Ok a) -> rbind m f r = f a r1.
Proof. intros H. unfold rbind. rewrite H. reflexivity. Qed.

Lemma advance_col_app c a b : advance_col c (a ++ b) = advance_col (advance_col c a) b.
Proof. unfold advance_col. apply fold_left_app. Qed.

Lemma push_eq v r : push v r =
  (set_stack_len r (v :: r_stack r) (r_slen r + 1), if MAX_POOL <? r_slen r + 1 then err E_OutOfMemory else Ok tt).
Proof. reflexivity. Qed.

(* the actions of Runtime.v that are written as raw functions of the state, in monadic form *)

Lemma do_clear_rmod O : do_clear O = rmod (fun r => fst (do_clear O r)).
Proof. reflexivity. Qed.

Lemma do_end_rmod : do_end = rdo _ <~ rmod (fun r => fst (do_end r)) ;; rret EvStopped.
Proof. reflexivity. Qed.

Lemma do_return_eq r : do_return r =
  (rdo r0 <~ rget ;;
   match return_loop (r_stack r0) None true with
   | None => rdo _ <~ rmod (fun r => set_stack r []) ;; rfail E_ReturnWithoutGosub
   | Some (rest, ret, addr) =>
       rdo _ <~ rmod (fun r => set_stack r rest) ;;
       match ret with
       | Some v => rdo _ <~ push v ;; rmod (fun r => set_pc r addr)
       | None => rmod (fun r => set_pc r addr)
       end
   end) r.
Proof.
  unfold do_return, rbind, rget. destruct (return_loop (r_stack r) None true) as [[[rest [v |]] addr] |]; reflexivity.
Qed.

(* NEXT looks at the top of the stack before it pops it *)
Lemma do_next_eq f name r : do_next (S f) name r =
  (rdo r0 <~ rget ;;
   match r_stack r0 with
   | VNext next :: _ =>
       rdo _ <~ pop ;; rdo nv <~ pop ;; rdo stepv <~ pop ;; rdo tov <~ pop ;;
       match nv with
       | VStr vname =>
           if negb (match name with [] => true | _ => false end) && negb (str_eqb vname name)
           then do_next f name
           else
             rdo r1 <~ rget ;;
             rdo cur0 <~ rlift (var_fetch (r_vars r1) vname) ;;
             rdo cur <~ rlift (op_sum cur0 stepv) ;;
             rdo _ <~ (fun r => match var_store (r_vars r) vname cur with
                                | Ok vs => (set_vars r vs, Ok tt)
                                | Err e => (r, Err e) | Panic => (r, Panic) | Hang => (r, Hang)
                                end) ;;
             match to_f64 stepv with
             | Ok st =>
                 rdo lt <~ rlift (if f64_lt st 0 then op_less cur tov else op_less tov cur) ;;
                 let done := match lt with VInt n => (n =? -1)%Z | _ => false end in
                 if done then rret tt
                 else
                   rdo _ <~ push tov ;; rdo _ <~ push stepv ;; rdo _ <~ push (VStr vname) ;;
                   rdo _ <~ push (VNext next) ;;
                   rmod (fun r => set_pc r next)
             | _ => do_next f name
             end
       | _ => do_next f name
       end
   | _ :: _ => rdo _ <~ pop ;; rfail E_NextWithoutFor
   | [] => rfail E_NextWithoutFor
   end) r.
Proof.
  cbn [do_next]. unfold rbind, rget, pop. cbv beta iota. destruct (r_stack r) as [| v s1] eqn:Es; [reflexivity |]. destruct v; rewrite ?Es; reflexivity.
Qed.

(* One structural step.  `prim` discharges what the structure does not decide: primitive actions, state updates,
   continuations that read the state (`rbind rget _`), and sequences the instance wants to treat as a whole. *)
Ltac rm_step C prim :=
  lazymatch goal with
  | |- _ (rret _) => apply (c_ret _ C)
  | |- _ (rbind _ _) => first [ prim | apply (c_bind _ C); [ | intros ?] ]
  | |- _ (rfail _) => apply (c_const _ C)
  | |- _ (rlift _) => apply (c_const _ C)
  | |- _ (fun r => (r, _)) => apply (c_const _ C)
  | |- _ (if ?b then _ else _) => destruct b
  | |- _ (match ?x with _ => _ end) => destruct x
  | |- _ (let '(_, _) := ?x in _) => destruct x
  | |- _ (let _ := _ in _) => cbv zeta
  | |- _ (do_clear _) => first [ prim | rewrite do_clear_rmod ]
  | |- _ do_end => first [ prim | rewrite do_end_rmod ]
  | |- _ do_return => first [ prim | apply (c_ext _ C _ _ _ do_return_eq) ]
  | |- _ => prim
  end.
Ltac rm_walk C prim := repeat (rm_step C prim).

Lemma one_op_eq O h r : one_op O h r =
  match nthN (l_ops (pg_link (r_prog r))) (r_pc r) with
  | None => (r, err E_Internal)
  | Some op => exec_op O h op (set_pc r (r_pc r + 1))
  end.
Proof. unfold one_op, rbind, rget. destruct (nthN _ _); reflexivity. Qed.

Lemma exec_loop_S_notron O f h r : r_tron r = false ->
  exec_loop O (S f) h r =
  match one_op O h r with
  | (r2, Ok (Some ev)) => (r2, Ok ev)
  | (r2, Ok None) => exec_loop O f h r2
  | (r2, Err e) => (r2, Err e)
  | (r2, Panic) => (r2, Panic)
  | (r2, Hang) => (r2, Hang)
  end.
Proof.
  intros Ht. cbn [exec_loop]. unfold rbind at 1. unfold rget at 1. rewrite Ht. cbn [andb].
  unfold rbind at 1. unfold rret at 1. unfold rbind at 1.
  destruct (one_op O h r) as [r2 [[ev |] | e | |]]; reflexivity.
Qed.

Definition hoare {A} (I J : rt -> Prop) (m : RM A) : Prop :=
  forall r, I r -> match snd (m r) with Ok _ => I (fst (m r)) | _ => J (fst (m r)) end.

(* the general triple, for sequences whose intermediate states satisfy something other than the invariant *)
Definition hoare3 {A} (P Q J : rt -> Prop) (m : RM A) : Prop :=
  forall r, P r -> match snd (m r) with Ok _ => Q (fst (m r)) | _ => J (fst (m r)) end.
Lemma hoare3_bind {A B} (P Q R J : rt -> Prop) (m : RM A) (f : A -> RM B) :
  hoare3 P Q J m -> (forall a, hoare3 Q R J (f a)) -> hoare3 P R J (rbind m f).
Proof.
  intros Hm Hf r H. unfold rbind. specialize (Hm r H).
  destruct (m r) as [r' [a | e | |]]; cbn in *; try exact Hm.
  apply Hf. exact Hm.
Qed.

Lemma hoare_weaken {A} (I J J' : rt -> Prop) (m : RM A) : (forall r, J r -> J' r) -> hoare I J m -> hoare I J' m.
Proof. intros HJ Hm r H. specialize (Hm r H). destruct (snd (m r)); auto. Qed.

Section Rules.
Variables I J : rt -> Prop.
Hypothesis IJ : forall r, I r -> J r.

Lemma hoare_closed : rm_closed (fun A => @hoare A I J).
Proof.
  split.
  - intros A a r H. exact H.
  - intros A B. exact (hoare3_bind I I I J).
  - intros A x r H. cbn. destruct x; auto.
  - intros A m m' E H r Hr. rewrite E. exact (H r Hr).
Qed.

Lemma hoare_rget : hoare I J rget.
Proof. intros r H. exact H. Qed.

(* reading the state and continuing with it, when the continuation is only right for the state it was handed *)
Lemma hoare_bind_rget {B} (f : rt -> RM B) :
  (forall r0, I r0 -> match snd (f r0 r0) with Ok _ => I (fst (f r0 r0)) | _ => J (fst (f r0 r0)) end) ->
  hoare I J (rbind rget f).
Proof. intros Hf r H. unfold rbind, rget. apply Hf, H. Qed.

Lemma hoare_rmod f : (forall r, I r -> I (f r)) -> hoare I J (rmod f).
Proof. intros Hf r H. cbn. auto. Qed.

Lemma hoare_try {A} (g : rt -> res A) (set : rt -> A -> rt) :
  (forall r a, I r -> I (set r a)) ->
  hoare I J (fun r => match g r with
                      | Ok v => (set r v, Ok tt)
                      | Err e => (r, Err e) | Panic => (r, Panic) | Hang => (r, Hang)
                      end).
Proof. intros Hs r H. destruct (g r); cbn; auto. Qed.

Lemma hoare_with_vars {A} (f : varstore -> varstore * res A) :
  (forall r v, I r -> I (set_vars r v)) -> (forall r v, I r -> J (set_vars r v)) -> hoare I J (with_vars f).
Proof. intros H1 H2 r H. unfold with_vars. destruct (f (r_vars r)) as [vs x]. cbn. destruct x; auto. Qed.

End Rules.

Section Sim.
(* the other machine; the two parameters are the ones an action may change on the way (the saved continuation address and
   the trace marker in all uses) *)
Variable F : N -> option N -> rt -> rt.

Definition sim {A} (m : RM A) : Prop :=
  forall c t r, exists c' t', m (F c t r) = (F c' t' (fst (m r)), snd (m r)).

Lemma sim_closed : rm_closed (@sim).
Proof.
  split.
  - intros A a c t r. exists c, t. reflexivity.
  - intros A B m f Hm Hf c t r. unfold rbind. destruct (Hm c t r) as [c1 [t1 E]]. rewrite E.
    destruct (m r) as [r1 [a | e | |]]; cbn [fst snd]; try (exists c1, t1; reflexivity). apply Hf.
  - intros A x c t r. exists c, t. reflexivity.
  - intros A m m' E H c t r. rewrite !E. apply H.
Qed.

Lemma sim_rmod (f : rt -> rt) : (forall c t r, exists c' t', f (F c t r) = F c' t' (f r)) -> sim (rmod f).
Proof. intros H c t r. unfold rmod. destruct (H c t r) as [c' [t' E]]. rewrite E. exists c', t'. reflexivity. Qed.

Lemma sim_rget {B} (f : rt -> RM B) : (forall c t r, f (F c t r) = f r) -> (forall r0, sim (f r0)) -> sim (rbind rget f).
Proof. intros H1 H2 c t r. unfold rbind, rget. rewrite H1. apply H2. Qed.

Lemma sim_try {A} (g : rt -> res A) (set : rt -> A -> rt) :
  (forall c t r, g (F c t r) = g r) ->
  (forall c t r a, exists c' t', set (F c t r) a = F c' t' (set r a)) ->
  sim (fun r => match g r with
                | Ok v => (set r v, Ok tt)
                | Err e => (r, Err e) | Panic => (r, Panic) | Hang => (r, Hang)
                end).
Proof.
  intros Hg Hs c t r. rewrite Hg. destruct (g r) as [a | e | |]; cbn [fst snd]; try (exists c, t; reflexivity).
  destruct (Hs c t r a) as [c' [t' E]]. rewrite E. exists c', t'. reflexivity.
Qed.

Lemma sim_exec_loop O (ok : nat -> bool -> rt -> Prop) :
  (forall c t r, r_tron (F c t r) = r_tron r) ->
  (forall f h r, ok (S f) h r -> r_tron r = false /\
     (forall c t, exists c' t', one_op O h (F c t r) = (F c' t' (fst (one_op O h r)), snd (one_op O h r))) /\
     (forall r2, one_op O h r = (r2, Ok None) -> ok f h r2)) ->
  forall fuel h r c t, ok fuel h r ->
  exists c' t', exec_loop O fuel h (F c t r) = (F c' t' (fst (exec_loop O fuel h r)), snd (exec_loop O fuel h r)).
Proof.
  intros Ftron Hok. induction fuel as [| f IH]; intros h r c t H; [exists c, t; reflexivity |].
  destruct (Hok f h r H) as (Ht & Hstep & Hnext).
  rewrite (exec_loop_S_notron O f h r Ht), (exec_loop_S_notron O f h (F c t r)) by (rewrite Ftron; exact Ht).
  destruct (Hstep c t) as [c1 [t1 E]]. rewrite E.
  destruct (one_op O h r) as [r2 [[ev |] | e | |]] eqn:E2; cbn [fst snd]; try (exists c1, t1; reflexivity).
  apply IH. apply Hnext. reflexivity.
Qed.

End Sim.

Record stack_blind (F : N -> option N -> rt -> rt) : Prop := {
  F_stack : forall c t r, r_stack (F c t r) = r_stack r;
  F_slen : forall c t r, r_slen (F c t r) = r_slen r;
  F_vars : forall c t r, r_vars (F c t r) = r_vars r;
  F_set_stack : forall c t r s n, set_stack_len (F c t r) s n = F c t (set_stack_len r s n);
  F_set_vars : forall c t r v, set_vars (F c t r) v = F c t (set_vars r v)
}.

Section SimStack.
Variable F : N -> option N -> rt -> rt.
Hypothesis B : stack_blind F.

Lemma sim_push v : sim F (push v).
Proof. intros c t r. exists c, t. rewrite !push_eq, (F_stack F B), (F_slen F B), (F_set_stack F B). reflexivity. Qed.
Lemma sim_pop : sim F pop.
Proof.
  intros c t r. exists c, t. unfold pop. rewrite (F_stack F B), (F_slen F B). destruct (r_stack r); [reflexivity |].
  rewrite (F_set_stack F B). reflexivity.
Qed.
Lemma sim_pop_n n : sim F (pop_n n).
Proof.
  intros c t r. exists c, t. unfold pop_n. rewrite (F_stack F B), (F_slen F B).
  destruct ((n <? 0)%Z || (r_slen r <? Z.to_N n)); [reflexivity |]. rewrite (F_set_stack F B). reflexivity.
Qed.
Lemma sim_with_vars {A} (f : varstore -> varstore * res A) : sim F (with_vars f).
Proof.
  intros c t r. exists c, t. unfold with_vars. rewrite (F_vars F B). destruct (f (r_vars r)). rewrite (F_set_vars F B). reflexivity.
Qed.

End SimStack.


(* The side conditions of rmod / rget / try for an F that is made of field updates: both sides compute.  The witnesses are
   given, not left to unification (which would unfold the nested updates with evars in them, at seconds per goal): the
   parameters are unchanged, or else they are what the updated image holds in the two fields F sets. *)
Ltac sim_side :=
  let c := fresh "c" in let t := fresh "t" in
  intros c t; intros;
  first [ reflexivity
        | exists c, t; reflexivity
        | lazymatch goal with |- exists _ _, ?lhs = _ => exists (r_cont_pc lhs), (r_tr lhs); reflexivity end ].

(* the primitive actions of a `sim` instance whose F is stack_blind (B); a tactic handed to rm_walk as an argument starts
   with `idtac;`, otherwise its match on the goal is run where it is passed, not where it is used *)
Ltac sim_prim B side :=
  idtac;
  lazymatch goal with
  | |- sim _ (push _) => apply (sim_push _ B)
  | |- sim _ pop => apply (sim_pop _ B)
  | |- sim _ (pop_n _) => apply (sim_pop_n _ B)
  | |- sim _ (with_vars _) => apply (sim_with_vars _ B)
  | |- sim _ (rmod _) => apply sim_rmod; side
  | |- sim _ (rbind rget _) => apply sim_rget; [side | intros ?]
  | |- sim _ (fun r => match _ with Ok _ => _ | Err _ => _ | Panic => _ | Hang => _ end) => apply sim_try; side
  end.
