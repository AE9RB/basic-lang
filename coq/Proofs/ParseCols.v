(* C19 -- the parser's column bookkeeping.  Every token the parser reads is handed over with the character range it occupies
   in the listed text of the line (the concatenation of the token texts), blanks included; a line-number operand read at such a
   position gets exactly the range of its digits. *)
From BL Require Import Base.Prelude Base.Floats Lang.Token Lang.Ast Lang.Parse Proofs.ParseSafe.
Local Open Scope N_scope.

Definition width (t : token) : N := lenN (token_str t).
Definition widths (ts : list token) : N := lenN (tokens_str ts).

Lemma widths_app : forall a b, widths (a ++ b) = widths a + widths b.
Proof. intros a b. unfold widths, tokens_str, lenN. rewrite flat_map_app, app_length. lia. Qed.
Lemma widths_cons : forall t r, widths (t :: r) = width t + widths r.
Proof. intros t r. unfold widths, width, tokens_str, lenN. cbn [flat_map]. rewrite app_length. lia. Qed.
Lemma widths_nil : widths [] = 0. Proof. reflexivity. Qed.

Definition is_blank (t : token) : bool := match t with TWs _ => true | _ => false end.

Lemma next_raw_spec : forall toks ce t r rem' cs ce',
  next_raw toks false ce = (Some t, r, rem', cs, ce') ->
  exists ws, toks = ws ++ t :: r /\ forallb is_blank ws = true /\ is_blank t = false /\ is_rem_tok t = false
             /\ rem' = false /\ cs = ce + widths ws /\ ce' = cs + width t.
Proof.
  induction toks as [| x toks IH]; intros ce t r rem' cs ce' H; cbn [next_raw] in H; [discriminate |].
  cbn [orb] in H. destruct (is_rem_tok x) eqn:Er.
  - (* after a remark word nothing is returned any more *)
    exfalso. clear IH. revert H. generalize ce. induction toks as [| y toks IH2]; intros ce0 H; cbn [next_raw] in H; [discriminate |].
    cbn [orb] in H. apply (IH2 ce0). exact H.
  - destruct x; try (injection H as <- <- <- <- <-; exists []; cbn [app forallb]; rewrite widths_nil;
                     repeat split; try reflexivity; try assumption; unfold width; lia).
    apply IH in H. destruct H as [ws (E & Hb & Ht & Hr & Hrem & Hcs & Hce)].
    exists (TWs n :: ws). rewrite E. cbn [app forallb is_blank andb]. rewrite widths_cons. unfold width.
    repeat split; try assumption. lia.
Qed.

Definition Pos (all : list token) (st : pst) : Prop :=
  p_rem st = false /\
  match p_peek st with
  | None => exists before, all = before ++ p_toks st /\ p_ce st = widths before
  | Some t => exists before, all = before ++ t :: p_toks st /\ p_cs st = widths before /\ p_ce st = widths before + width t
  end.

Lemma pos_start : forall toks, Pos toks (mkP toks None false 0 0).
Proof. intros toks. split; [reflexivity |]. exists []. split; reflexivity. Qed.

Lemma next_pos : forall all st t st', Pos all st -> p_next st = (Some t, st') ->
  p_rem st' = false /\ p_peek st' = None /\
  exists before, all = before ++ t :: p_toks st' /\ p_cs st' = widths before /\ p_ce st' = widths before + width t.
Proof.
  intros all st t st' [Hrem Hp] H. unfold p_next in H. destruct (p_peek st) as [pk |].
  - injection H as -> <-. cbn [p_rem p_peek p_toks p_cs p_ce]. split; [exact Hrem |]. split; [reflexivity | exact Hp].
  - destruct Hp as [before (E & Hce)]. rewrite Hrem in H.
    destruct (next_raw (p_toks st) false (p_ce st)) as [[[[t0 r] rem'] cs] ce'] eqn:En. injection H as -> <-.
    destruct (next_raw_spec _ _ _ _ _ _ _ En) as [ws (Et & _ & _ & _ & -> & Hcs & Hce')].
    cbn [p_rem p_peek p_toks p_cs p_ce]. split; [reflexivity |]. split; [reflexivity |].
    exists (before ++ ws). rewrite E, Et, <- app_assoc, widths_app. repeat split; lia.
Qed.

Theorem next_gives_range : forall all st t st', Pos all st -> p_next st = (Some t, st') ->
  Pos all st' /\ exists before after, all = before ++ t :: after /\ p_cs st' = widths before /\ p_ce st' = widths before + width t.
Proof.
  intros all st t st' HP H. destruct (next_pos all st t st' HP H) as (Hr & Hpk & before & E & Hcs & Hce). split.
  - split; [exact Hr |]. rewrite Hpk. exists (before ++ [t]). rewrite <- app_assoc. split; [exact E |].
    rewrite widths_app, widths_cons, widths_nil. lia.
  - exists before, (p_toks st'). repeat split; assumption.
Qed.

Lemma peek_pos : forall all st t st', Pos all st -> p_peekt st = (Some t, st') -> Pos all st' /\ p_peek st' = Some t.
Proof.
  intros all st t st' HP H. unfold p_peekt in H. destruct (p_peek st) as [pk |] eqn:Epk.
  - injection H as -> <-. split; assumption.
  - destruct (p_next st) as [t0 st1] eqn:En. injection H as -> <-.
    destruct (next_pos all st t st1 HP En) as (Hr & _ & Hb). split; [| reflexivity]. split; [exact Hr | exact Hb].
Qed.

Lemma pos_held : forall all st t, Pos all st -> p_peek st = Some t ->
  exists before, all = before ++ t :: p_toks st /\ p_cs st = widths before /\ p_ce st = widths before + width t.
Proof. intros all st t [_ Hp] Hpk. rewrite Hpk in Hp. exact Hp. Qed.

Definition is_lnum_lit (l : literal) : option str :=
  match l with LInt s | LSng s | LDbl s => Some s | _ => None end.

Theorem while_wend_keyword_range : forall all st f s st' w st1, Pos all st ->
  p_peekt st = (Some (TWord w), st1) -> (w = WWhile \/ w = WWend) ->
  statement (S f) st = Ok (s, st') ->
  exists before after, all = before ++ TWord w :: after /\
    let c := (widths before, widths before + lenN (word_str w)) in
    match w with WWend => s = SWend c | _ => exists e, s = SWhile c e end.
Proof.
  intros all st f s st' w st1 HP Epk Hw H.
  destruct (peek_pos all st (TWord w) st1 HP Epk) as [HP1 Hpk1]. destruct (pos_held all st1 _ HP1 Hpk1) as [before (E & Hcs & Hce)].
  exists before, (p_toks st1). split; [exact E |]. cbn zeta.
  (* the statement looks at the word, takes it out of the slot and notes its range; with the word known, little of the
     dispatch on it is left to carry through these steps *)
  assert (Hc : pcol (snd (p_next st1)) = (widths before, widths before + lenN (word_str w))).
  { unfold p_next. rewrite Hpk1. unfold pcol. cbn [snd p_cs p_ce]. rewrite Hcs, Hce. reflexivity. }
  assert (Hn : p_next st1 = (Some (TWord w), snd (p_next st1))) by (unfold p_next; rewrite Hpk1; reflexivity).
  destruct Hw as [-> | ->]; cbn [statement] in H.
  all: unfold pbind at 1, ppeek at 1 in H; rewrite Epk in H.
  all: unfold pbind at 1, pnext at 1 in H; rewrite Hn in H.
  all: unfold pbind at 1, pcolm at 1 in H; rewrite Hc in H.
  - unfold pbind in H. destruct (expression f _) as [[e st2] | | |]; try discriminate H. injection H as <- _. exists e. reflexivity.
  - injection H as <- _. reflexivity.
Qed.

(* behind the last token (or behind a remark, which swallows the rest of the line) nothing is handed out any more *)
Definition At (all : list token) (st : pst) : Prop := Pos all st \/ (p_peek st = None /\ p_toks st = []).

Lemma next_raw_nil : forall rem ce, next_raw [] rem ce = (None, [], rem, ce, ce).
Proof. reflexivity. Qed.

Lemma next_raw_none : forall toks rem ce t r rem' cs ce', next_raw toks rem ce = (t, r, rem', cs, ce') -> t = None -> r = [].
Proof.
  induction toks as [| x toks IH]; intros rem ce t r rem' cs ce' H Ht; cbn [next_raw] in H; [injection H as _ <- _ _ _; reflexivity |].
  destruct (rem || is_rem_tok x); [exact (IH _ _ _ _ _ _ _ H Ht) |].
  destruct x; try (injection H as <- _ _ _ _; discriminate Ht). exact (IH _ _ _ _ _ _ _ H Ht).
Qed.

Lemma at_next : forall all st t st', At all st -> p_next st = (t, st') -> At all st'.
Proof.
  intros all st t st' HA H. destruct t as [t |].
  - destruct HA as [HP | [Hpk Hto]]; [left; exact (proj1 (next_gives_range all st t st' HP H)) |].
    unfold p_next in H. rewrite Hpk, Hto in H. cbn in H. discriminate H.
  - right. unfold p_next in H. destruct (p_peek st) as [pk |] eqn:Epk; [discriminate H |].
    destruct (next_raw (p_toks st) (p_rem st) (p_ce st)) as [[[[t0 r] rem'] cs] ce'] eqn:En. injection H as -> <-.
    cbn [p_peek p_toks]. split; [reflexivity | exact (next_raw_none _ _ _ _ _ _ _ _ En eq_refl)].
Qed.

Lemma at_peek : forall all st t st', At all st -> p_peekt st = (t, st') -> At all st'.
Proof.
  intros all st t st' HA H. destruct t as [t |].
  - destruct HA as [HP | [Hpk Hto]]; [left; exact (proj1 (peek_pos all st t st' HP H)) |].
    unfold p_peekt, p_next in H. rewrite Hpk, Hto in H. cbn in H. discriminate H.
  - right. unfold p_peekt in H. destruct (p_peek st) as [pk |] eqn:Epk; [discriminate H |].
    destruct (p_next st) as [t0 st1] eqn:En. injection H as -> <-. cbn [p_peek p_toks].
    destruct (at_next all st None st1 HA En) as [[Hr Hp] | [H1 H2]].
    + (* st1 is aligned and empty-handed: its rest is empty as well *)
      unfold p_next in En. rewrite Epk in En.
      destruct (next_raw (p_toks st) (p_rem st) (p_ce st)) as [[[[t0 r] rem'] cs] ce'] eqn:Er. injection En as -> <-.
      split; [reflexivity | exact (next_raw_none _ _ _ _ _ _ _ _ Er eq_refl)].
    + split; [reflexivity | exact H2].
Qed.

Lemma at_some_is_pos : forall all st t st', At all st -> p_peekt st = (Some t, st') -> Pos all st.
Proof.
  intros all st t st' [HP | [Hpk Hto]] H; [exact HP |]. unfold p_peekt, p_next in H. rewrite Hpk, Hto in H. cbn in H. discriminate H.
Qed.

Lemma at_closed all : closed (At all).
Proof.
  intros st H. split.
  - destruct (p_next st) as [t st'] eqn:E. exact (at_next all st t st' H E).
  - destruct (p_peekt st) as [t st'] eqn:E. exact (at_peek all st t st' H E).
Qed.

Section Keeps.
Variable all : list token.

Definition keeps {A} (m : P A) : Prop := forall st a st', At all st -> m st = Ok (a, st') -> At all st'.

Lemma spec_keeps {A} Pre (m : P A) Post : spec (At all) Pre m Post -> forall st a st', At all st -> Pre st -> m st = Ok (a, st') -> At all st' /\ Post a st'.
Proof. intros H st a st' HA HP E. specialize (H st HA HP). rewrite E in H. exact H. Qed.

Lemma tame_keeps {A} (m : P A) : tame m -> keeps m.
Proof. intros H st a st' HA E. exact (proj1 (spec_keeps _ m _ (H (At all) (at_closed all)) st a st' HA I E)). Qed.

Lemma keeps_const {A} (x : res (A * pst)) : (forall a st', x <> Ok (a, st')) -> keeps (fun _ => x).
Proof. intros Hx st a st' _ E. exfalso. exact (Hx a st' E). Qed.

Lemma keeps_maybe t : keeps (maybe t). Proof. exact (tame_keeps _ (tame_maybe t)). Qed.
Lemma keeps_expect t : keeps (expect t). Proof. exact (tame_keeps _ (tame_expect t)). Qed.
Lemma keeps_expr_list fuel vm : keeps (expr_list fuel vm). Proof. exact (tame_keeps _ (tame_expr_list fuel vm)). Qed.
Lemma keeps_expression fuel : keeps (expression fuel). Proof. exact (tame_keeps _ (tame_expression fuel)). Qed.
Lemma keeps_expect_ident : keeps expect_ident. Proof. exact (tame_keeps _ tame_expect_ident). Qed.
Lemma keeps_ident_list fuel b : keeps (ident_list fuel b).
Proof. exact (tame_keeps _ (tame_ident_list fuel b)). Qed.
Lemma keeps_expect_var fuel : keeps (expect_var fuel). Proof. exact (tame_keeps _ (tame_expect_var fuel)). Qed.
Lemma keeps_var_list fuel : keeps (var_list fuel).
Proof. exact (tame_keeps _ (tame_var_list fuel)). Qed.
Lemma keeps_maybe_line_number : keeps maybe_line_number. Proof. exact (tame_keeps _ tame_maybe_line_number). Qed.
Lemma keeps_expect_line_number : keeps expect_line_number. Proof. exact (tame_keeps _ tame_expect_line_number). Qed.
Lemma keeps_line_number_list fuel b : keeps (line_number_list fuel b).
Proof. exact (tame_keeps _ (tame_line_number_list fuel b)). Qed.
Lemma keeps_line_number_range : keeps line_number_range. Proof. exact (tame_keeps _ tame_line_number_range). Qed.
Lemma keeps_var_range : keeps var_range. Proof. exact (tame_keeps _ tame_var_range). Qed.
Lemma keeps_print_list fuel b : keeps (print_list fuel b).
Proof. exact (tame_keeps _ (tame_print_list fuel b)). Qed.
Lemma keeps_skip_to_end fuel : keeps (skip_to_end fuel).
Proof. exact (tame_keeps _ (tame_skip_to_end fuel)). Qed.
Lemma keeps_renum_start d : keeps (renum_start d). Proof. exact (tame_keeps _ (tame_renum_start d)). Qed.
End Keeps.

Lemma lnum_lit_str : forall l s, is_lnum_lit l = Some s -> token_str (TLit l) = s.
Proof. intros l s H. destruct l; try discriminate H; injection H as <-; reflexivity. Qed.

Definition num_range (all : list token) (c : col) : Prop :=
  exists before l s after, all = before ++ TLit l :: after /\ is_lnum_lit l = Some s /\ c = (widths before, widths before + lenN s).
Definition word_range (all : list token) (w : word) (c : col) : Prop :=
  exists before after, all = before ++ TWord w :: after /\ c = (widths before, widths before + lenN (word_str w)).

(* a branch target: always a number token of the line *)
Definition good_lnum (all : list token) (e : expr) : Prop :=
  match e with ESng c _ => num_range all c | _ => False end.
(* an optional target (RESTORE, RUN): a number token of the line, or the marker for "none" *)
Definition good_target (all : list token) (e : expr) : Prop :=
  match e with ESng c b => b = f32_of_Z (-1) \/ num_range all c | EStr _ _ => True | _ => False end.

(* an end of a LIST / DELETE range: a number token of the line, or an empty range standing for an omitted end *)
Definition good_end (all : list token) (e : expr) : Prop :=
  match e with ESng c _ => fst c = snd c \/ num_range all c | _ => False end.

Fixpoint good_stmt (all : list token) (s : stmt) : Prop :=
  match s with
  | SGoto _ e | SGosub _ e => good_lnum all e
  | SDelete _ a b | SList _ a b => good_end all a /\ good_end all b
  | SOnGoto _ _ l | SOnGosub _ _ l => Forall (good_lnum all) l
  | SRestore _ e | SRun _ e => good_target all e
  | SWhile c _ => word_range all WWhile c
  | SWend c => word_range all WWend c
  | SIf _ _ th el =>
      (fix go (l : list stmt) : Prop := match l with [] => True | x :: r => good_stmt all x /\ go r end) th
      /\ (fix go (l : list stmt) : Prop := match l with [] => True | x :: r => good_stmt all x /\ go r end) el
  | _ => True
  end.
Fixpoint good_stmts (all : list token) (l : list stmt) : Prop :=
  match l with [] => True | x :: r => good_stmt all x /\ good_stmts all r end.

Lemma good_stmts_Forall : forall all l, good_stmts all l <-> Forall (good_stmt all) l.
Proof.
  intros all l. induction l as [| x r IH]; cbn [good_stmts]; [split; constructor |]. rewrite IH. split.
  - intros [Hx Hr]. constructor; assumption.
  - intros H. inversion H. split; assumption.
Qed.

Section Gives.
Variable all : list token.

Definition triple {A} (Pre : pst -> Prop) (m : P A) (Post : A -> pst -> Prop) : Prop :=
  forall st a st', At all st -> Pre st -> m st = Ok (a, st') -> At all st' /\ Post a st'.

Lemma triple_weaken {A} (Pre Pre' : pst -> Prop) (m : P A) (Post Post' : A -> pst -> Prop) :
  (forall st, Pre' st -> Pre st) -> (forall a st, Post a st -> Post' a st) -> triple Pre m Post -> triple Pre' m Post'.
Proof. intros H1 H2 H st a st' HA HP E. destruct (H st a st' HA (H1 st HP) E) as [HA' HQ]. split; [exact HA' | exact (H2 a st' HQ)]. Qed.

Lemma good_if : forall c p th el, good_stmt all (SIf c p th el) <-> good_stmts all th /\ good_stmts all el.
Proof.
  intros c p th el. cbn [good_stmt].
  assert (G : forall l, (fix go (l : list stmt) : Prop := match l with [] => True | x :: r => good_stmt all x /\ go r end) l <-> good_stmts all l).
  { induction l as [| x r IH]; cbn [good_stmts]; [tauto |]. rewrite IH. tauto. }
  rewrite !G. tauto.
Qed.

Definition tok_range (t : token) (c : col) : Prop :=
  exists before after, all = before ++ t :: after /\ c = (widths before, widths before + width t).
Lemma tok_range_word : forall w c, tok_range (TWord w) c -> word_range all w c.
Proof. intros w c [before [after [E ->]]]. exists before, after. split; [exact E | reflexivity]. Qed.

Definition Peeked (pk : option token) (st : pst) : Prop :=
  match pk with Some t => Pos all st /\ p_peek st = Some t | None => True end.

Lemma spec_ppeek_at Pre : spec (At all) Pre ppeek Peeked.
Proof.
  intros st HA _. unfold ppeek. destruct (p_peekt st) as [pk st'] eqn:E. split; [exact (at_peek all st pk st' HA E) |].
  destruct pk as [t |]; [| exact I]. exact (peek_pos all st t st' (at_some_is_pos all st t st' HA E) E).
Qed.

Definition took (t : token) (st : pst) : Prop := Pos all st /\ tok_range t (pcol st).
Lemma took_word : forall w st, took (TWord w) st -> word_range all w (pcol st).
Proof. intros w st [_ H]. exact (tok_range_word w _ H). Qed.

Lemma spec_pnext_peeked t : spec (At all) (Peeked (Some t)) pnext (fun _ => took t).
Proof.
  intros st HA [HP Hpk]. unfold pnext. destruct (p_next st) as [a st'] eqn:E.
  assert (Ea : a = Some t) by (unfold p_next in E; rewrite Hpk in E; injection E as <- _; reflexivity). subst a.
  destruct (next_gives_range all st t st' HP E) as [HP' (before & after & Eall & Hcs & Hce)].
  split; [left; exact HP' |]. split; [exact HP' |]. exists before, after. unfold pcol. rewrite Hcs, Hce. split; [exact Eall | reflexivity].
Qed.

Definition lnum_taken (n : N) (st : pst) : Prop :=
  exists l s, took (TLit l) st /\ is_lnum_lit l = Some s /\ parse_u16 s = Some n /\ n <= 65529.
Lemma lnum_taken_range : forall n st, lnum_taken n st -> num_range all (pcol st).
Proof.
  intros n st (l & s & [_ (before & after & E & Hc)] & Hl & _). exists before, l, s, after.
  unfold width in Hc. rewrite (lnum_lit_str l s Hl) in Hc. repeat split; assumption.
Qed.

Lemma spec_maybe_line_number Pre : spec (At all) Pre maybe_line_number
  (fun n st => match n with Some n => lnum_taken n st | None => True end).
Proof.
  unfold maybe_line_number. apply (spec_bind _ _ _ Peeked); [apply spec_ppeek_at | intros pk].
  destruct pk as [[| | [s | s | s | s | s | s] | | | | | | | |] |]; try (apply spec_ret; intros; exact I).
  (* the three spellings of a number token are read alike *)
  all: eapply spec_bind; [apply spec_pnext_peeked | intros ?].
  all: destruct (parse_u16 s) as [n |] eqn:Eu; [| apply spec_fail_here].
  all: destruct (N.leb_spec n 65529) as [Hle | _]; [| apply spec_fail_here].
  all: apply spec_ret; intros st Ht; eexists; exists s; split; [exact Ht | repeat split; assumption].
Qed.

Lemma spec_expect_line_number Pre : spec (At all) Pre expect_line_number
  (fun e st => exists n, lnum_taken n st /\ e = lnum_expr (pcol st) n).
Proof.
  unfold expect_line_number. eapply spec_bind; [apply spec_maybe_line_number | intros [n |]; [| apply spec_fail_here]].
  eapply spec_bind; [apply spec_pcolm | intros c]. apply spec_ret. intros st [-> H]. exists n. split; [exact H | reflexivity].
Qed.

Lemma expect_line_number_good Pre : spec (At all) Pre expect_line_number (fun e _ => good_lnum all e).
Proof.
  eapply spec_weaken; [intros st H; exact H | | apply spec_expect_line_number].
  intros e st (n & H & ->). exact (lnum_taken_range n st H).
Qed.

Hint Resolve spec_ppeek_at spec_pnext_peeked spec_maybe_line_number expect_line_number_good at_closed : sp.
(* what a `pret` has to establish about ranges follows from what was taken *)
Create HintDb ranges.
Hint Resolve took_word lnum_taken_range : ranges.
Ltac ranges :=
  try match goal with |- context [match ?n with _ => _ end] => is_var n; destruct n end;
  cbn [fst snd good_stmt good_stmts good_lnum good_target good_end lnum_expr]; eauto with ranges.

Lemma spec_line_number_list : forall fuel b Pre, spec (At all) Pre (line_number_list fuel b) (fun l _ => Forall (good_lnum all) l).
Proof.
  induction fuel as [| f IH]; intros b Pre; cbn [line_number_list]; sp; repeat constructor; assumption.
Qed.

Lemma spec_line_number_range Pre :
  spec (At all) Pre line_number_range (fun r _ => good_end all (fst r) /\ good_end all (snd r)).
Proof.
  unfold line_number_range. apply spec_pcolm_bind; intros c0 _.
  eapply spec_bind; [apply spec_maybe_line_number | intros fo].
  apply spec_pcolm_bind; intros c1 (st1 & Hf & ->).
  destruct fo as [n |].
  all: eapply spec_bind; [apply (tame_spec _ _ _ (tame_maybe _) (at_closed all)) | intros dash].
  all: apply (spec_bind _ _ _ (fun r _ => good_end all (snd r))); [sp; ranges | intros [to_num to]; sp; ranges].
Qed.

Hint Resolve spec_line_number_list spec_line_number_range : sp.

Theorem spec_stmts : forall fuel,
  (forall Pre, spec (At all) Pre (statement fuel) (fun s _ => good_stmt all s))
  /\ (forall b Pre, spec (At all) Pre (st_let fuel b) (fun s _ => good_stmt all s))
  /\ (forall b Pre, spec (At all) Pre (statements fuel b) (fun l _ => good_stmts all l)).
Proof.
  induction fuel as [| f (IHs & IHl & IHss)]; [split; [intros Pre | split; intros b Pre]; apply spec_hang |].
  split; [| split].
  - intros Pre. cbn [statement]. eapply spec_bind; [apply spec_ppeek_at | intros pk].
    destruct pk as [[| | | w | | | | | | |] |]; try apply spec_fail_here; try apply IHl.
    eapply spec_bind; [apply spec_pnext_peeked | intros ?].
    apply spec_pcolm_bind; intros c (st0 & Hc & ->).
    destruct w; try solve [sp; ranges].
    + (* IF: the two branches are statement lists of their own *)
      sp_step. sp_step.
      apply (spec_bind _ _ _ (fun l _ => good_stmts all l)); [sp; ranges | intros th; sp_step; sp_step].
      apply (spec_bind _ _ _ (fun l _ => good_stmts all l)); [sp; ranges | intros el; sp]. apply good_if. split; assumption.
  - intros b Pre. cbn [st_let]. sp.
  - intros b Pre. cbn [statements]. sp; ranges.
Qed.

End Gives.

Theorem parse_columns_exact : forall n toks l, parse n toks = Ok l -> good_stmts toks l.
Proof.
  intros n toks l H. destruct (parse_statements n toks) as [[e E] | E]; rewrite E in H; [discriminate H |].
  assert (HA : At toks (line_start toks)) by exact (proj2 (at_closed toks _ (or_introl (pos_start toks)))).
  pose proof (spec_keeps toks _ _ _ (proj2 (proj2 (spec_stmts toks (parse_fuel toks))) false (fun _ => True)) (line_start toks)) as G.
  destruct (statements _ _ _) as [[l0 st2] | | |]; try discriminate H. injection H as <-. exact (proj2 (G l0 st2 HA I eq_refl)).
Qed.

(* non-vacuity: a line with multi-byte text in front of its branches; the stored ranges cut the digits out of the listed text *)
From BL Require Import Lang.Lex.
Require Import String.
Definition cols_demo_src : str := s2l "PRINT ""é日"":IF A THEN 100 ELSE GOSUB 2000".
Definition cols_demo_toks : list token := match lex cols_demo_src with Ok (_, ts) => ts | _ => [] end.
Definition cut (text : str) (c : col) : str := firstnN (snd c - fst c) (skipnN (fst c) text).
Definition branch_cols (l : list stmt) : list col :=
  flat_map (fun s => match s with
                     | SIf _ _ [SGoto _ (ESng a _)] [SGosub _ (ESng b _)] => [a; b]
                     | _ => []
                     end) l.
Example cols_demo :
  match parse None cols_demo_toks with
  | Ok l => map (cut (tokens_str cols_demo_toks)) (branch_cols l) = [s2l "100"; s2l "2000"] /\ branch_cols l = [(24, 27); (39, 43)]
  | _ => False
  end.
Proof. vm_compute. split; reflexivity. Qed.
