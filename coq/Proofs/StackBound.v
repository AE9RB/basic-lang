(* C18: the value stack never holds more than 65535 entries between API calls (65536 transiently, at the
   moment a push reports OUT OF MEMORY).  An instance of section Walk of Proofs/Dirty.v: the
   invariant is r_slen r = lenN (r_stack r) with the bound, and what is argued here is what the stack primitives, RETURN and
   the unwinding after an error do to it. *)
From BL Require Import Base.Prelude Mach.Val Mach.Compile Mach.Runtime Proofs.Strings Proofs.RMFrame Proofs.Dirty
     Proofs.Slicing.
Local Open Scope N_scope.

Definition SI (r : rt) : Prop := r_slen r = lenN (r_stack r) /\ r_slen r <= MAX_POOL.
Definition SJ (r : rt) : Prop := r_slen r = lenN (r_stack r) /\ r_slen r <= MAX_POOL + 1.

Lemma SIJ : forall r, SI r -> SJ r.
Proof. intros r [H1 H2]. split; [exact H1 | lia]. Qed.

Lemma si_frame r r' : edit_view r' = edit_view r -> r_stack r' = r_stack r -> r_slen r' = r_slen r -> SI r -> SI r'.
Proof. unfold SI. intros _ -> ->. auto. Qed.
Lemma sj_frame r r' : edit_view r' = edit_view r -> r_stack r' = r_stack r -> r_slen r' = r_slen r -> SJ r -> SJ r'.
Proof. unfold SJ. intros _ -> ->. auto. Qed.

Lemma si_short r s : (length s <= N.to_nat MAX_POOL)%nat -> SI (set_stack r s).
Proof. intros H. unfold SI, set_stack, lenN. cbn [r_stack r_slen set_stack_len]. split; [reflexivity | lia]. Qed.

Section Bound.
Variable O : oracle.
Notation HT := (hoare SI SJ).

Lemma sb_push v : HT (push v).
Proof.
  intros r [H1 H2]. rewrite push_eq. cbn [fst snd].
  destruct (N.ltb_spec MAX_POOL (r_slen r + 1)); cbn [err]; unfold SI, SJ; cbn [r_stack r_slen set_stack_len]; rewrite lenN_cons; split; lia.
Qed.
Lemma sb_pop : HT pop.
Proof.
  intros r [H1 H2]. unfold pop. destruct (r_stack r) as [| v s] eqn:Es; cbn.
  - unfold SJ. rewrite Es. split; [exact H1 | lia].
  - unfold SI. cbn [r_stack r_slen set_stack_len]. rewrite lenN_cons in H1. split; lia.
Qed.
Lemma sb_pop_n n : HT (pop_n n).
Proof.
  intros r [H1 H2]. unfold pop_n. destruct ((n <? 0)%Z || (r_slen r <? Z.to_N n)); cbn; [split; [exact H1 | lia] |].
  unfold SI. cbn [r_stack r_slen set_stack_len]. rewrite H1 in *. unfold lenN, skipnN in *. rewrite skipn_length. split; lia.
Qed.

Lemma sb_shrink r s : SJ r -> (length s <= pred (length (r_stack r)))%nat -> SI (set_stack r s).
Proof. intros [Ha Hb] Hs. apply si_short. unfold lenN, MAX_POOL in *. lia. Qed.
Lemma sb_not_full r : SJ r -> stack_is_full r = false -> SI r.
Proof. intros [Ha Hb] Hf. unfold stack_is_full in Hf. apply N.ltb_ge in Hf. split; [exact Ha | unfold MAX_POOL in *; lia]. Qed.
Lemma sb_clear r : SJ r -> SI (fst (do_clear O r)).
Proof. intros _. unfold SI. cbn. unfold lenN, MAX_POOL. cbn. split; [reflexivity | lia]. Qed.

(* execute_input pops two values and pushes them back: it cannot overflow, so even its error exits keep the bound *)
Definition SP (k : N) (r : rt) : Prop := r_slen r = lenN (r_stack r) /\ r_slen r + k <= MAX_POOL.

Lemma sp_pop k : hoare3 (SP k) (SP (k + 1)) SI pop.
Proof.
  intros r [Ha Hb]. unfold pop. destruct (r_stack r) as [| v s] eqn:Es; cbn [fst snd].
  - unfold SI. rewrite Es. split; [exact Ha | lia].
  - unfold SP. cbn [r_stack r_slen set_stack_len]. rewrite lenN_cons in Ha. split; lia.
Qed.
Lemma sp_push k v : hoare3 (SP (k + 1)) (SP k) SI (push v).
Proof.
  intros r [Ha Hb]. unfold push. cbv zeta. cbn [r_slen set_stack_len].
  destruct (N.ltb_spec MAX_POOL (r_slen r + 1)); cbn [fst snd err]; [lia |].
  unfold SP. cbn [r_stack r_slen set_stack_len]. rewrite lenN_cons. split; lia.
Qed.

Lemma execute_input_I r : SI r -> SI (fst (execute_input r)).
Proof.
  intros H. assert (H0 : SP 0 r) by (destruct H; split; [assumption | lia]).
  assert (Hh : hoare3 (SP 0) SI SI execute_input).
  { unfold execute_input.
    apply (hoare3_bind (SP 0) (SP (0 + 1)) SI SI); [apply sp_pop | intros len].
    apply (hoare3_bind _ (SP (0 + 1 + 1)) SI SI); [apply sp_pop | intros caps].
    apply (hoare3_bind _ (SP (0 + 1 + 1)) SI SI); [intros x Hx; exact Hx | intros rr].
    assert (Hfail : forall k c, hoare3 (SP k) SI SI (@rfail event c)).
    { intros k c x [Hx1 Hx2]. cbn [rfail fst snd err]. split; [exact Hx1 | lia]. }
    destruct (r_stack rr) as [| p st]; [apply Hfail |].
    destruct p; try apply Hfail.
    apply (hoare3_bind _ (SP (0 + 1)) SI SI); [apply (sp_push (0 + 1)) | intros _].
    apply (hoare3_bind _ (SP 0) SI SI); [apply (sp_push 0) | intros _].
    apply (hoare3_bind _ SI SI SI); [| intros _ x Hx; exact Hx].
    intros x [Hx1 Hx2]. cbn [rmod fst snd]. apply (si_frame x); [reflexivity | reflexivity | reflexivity |]. split; [exact Hx1 | lia]. }
  specialize (Hh r H0). destruct (snd (execute_input r)); exact Hh.
Qed.

Hint Resolve SIJ si_frame sj_frame sb_push sb_pop sb_pop_n sb_shrink sb_clear sb_not_full execute_input_I : sb.

(* the editing commands do not touch the stack *)
Lemma sb_edit_ops h op : is_edit_op op = true -> HT (exec_op O h op).
Proof.
  intros. eapply walk_edit_ops with (K := SI); eauto with sb.
  split; intros; match goal with H : SI ?r |- SI _ => exact (si_frame r _ eq_refl eq_refl eq_refl H) end.
Qed.

Lemma sb_exec_op h op : HT (exec_op O h op).
Proof. eapply walk_exec_op with (allowed := fun _ => true); eauto using sb_edit_ops with sb. Qed.
Lemma sb_rt_execute r n r' e : SI r -> rt_execute O r n = Ok (r', e) -> SI r'.
Proof. intros. eapply walk_rt_execute with (J := SJ) (allowed := fun _ => true); eauto using sb_edit_ops with sb. Qed.
Lemma sb_rt_interrupt r : SI r -> SI (rt_interrupt r).
Proof. intros. eapply walk_rt_interrupt with (J := SJ); eauto with sb. Qed.
Lemma sb_enter_input r s : SI r -> SI (enter_input O r s).
Proof. intros. eapply walk_enter_input with (J := SJ); eauto with sb. Qed.
Lemma sb_enter_inkey r s : SI r -> SI (enter_inkey O r s).
Proof. intros. eapply walk_enter_inkey with (J := SJ); eauto with sb. Qed.

End Bound.


Section Reach.
Variable O : oracle.

Lemma bound_enter : forall r s r' b, SI r -> rt_enter O r s = Ok (r', b) -> SI r'.
Proof.
  intros r s r' b H E. apply (rt_enter_cases O SI r s r' b E); try exact H.
  - exact (si_frame _ _ eq_refl eq_refl eq_refl (sb_enter_input O r s H)).
  - apply sb_enter_inkey. exact H.
  - intros l. unfold enter_direct. destruct (r_dirty r); [| exact H].
    unfold SI. cbn. unfold lenN, MAX_POOL. cbn. split; [reflexivity | lia].
  - intros l r1 Ei. unfold enter_indirect in Ei. destruct (fst l), (snd l); injection Ei as <-; exact H.
Qed.

End Reach.
