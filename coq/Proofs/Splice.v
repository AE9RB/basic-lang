(* C14: RENUM rewrites a line by replacing character ranges of its listed text, last range first.  For ranges that follow
   one another, the result is the original text with exactly those ranges replaced: every character outside them stays
   where it was relative to its neighbours. *)
From BL Require Import Base.Prelude Lang.Ast Mach.Listing.
From Coq Require Import String.
Local Open Scope N_scope.

Fixpoint rebuild (s : str) (pos : N) (reps : list (col * N)) : str :=
  match reps with
  | [] => skipnN pos s
  | ((a, b), n) :: r => firstnN (a - pos) (skipnN pos s) ++ dec_of_N n ++ rebuild s b r
  end.

Fixpoint ordered (pos : N) (reps : list (col * N)) (len : N) : Prop :=
  match reps with
  | [] => pos <= len
  | ((a, b), _) :: r => pos <= a /\ a <= b /\ ordered b r len
  end.

Definition splice_all (s : str) (reps : list (col * N)) : res str :=
  fold_left (fun acc r => do t <- acc; replace_chars t (fst r) (dec_of_N (snd r))) (rev reps) (Ok s).

Lemma firstn_skipn_split {A} (l : list A) (p q : nat) : (p <= q)%nat -> firstn q l = firstn p l ++ firstn (q - p) (skipn p l).
Proof.
  revert l q. induction p as [| p IH]; intros l q H; [cbn; rewrite Nat.sub_0_r; reflexivity |].
  destruct q as [| q]; [lia |]. destruct l as [| x l]; [cbn; destruct (q - p)%nat; reflexivity |]. cbn [firstn skipn app]. f_equal.
  replace (S q - S p)%nat with (q - p)%nat by lia. apply IH. lia.
Qed.

Lemma splice_cons s r reps : splice_all s (r :: reps) = (do t <- splice_all s reps; replace_chars t (fst r) (dec_of_N (snd r))).
Proof. unfold splice_all. cbn [rev]. rewrite fold_left_app. reflexivity. Qed.

Lemma ordered_le : forall reps pos len, ordered pos reps len -> pos <= len.
Proof.
  induction reps as [| [[a b] n] r IH]; intros pos len H; cbn [ordered] in H; [exact H |].
  destruct H as (H1 & H2 & H3). specialize (IH b len H3). lia.
Qed.

Theorem splice_is_rebuild : forall reps s pos, ordered pos reps (lenN s) ->
  splice_all s reps = Ok (firstnN pos s ++ rebuild s pos reps).
Proof.
  induction reps as [| [[a b] n] r IH]; intros s pos H.
  - cbn. unfold firstnN, skipnN. rewrite firstn_skipn. reflexivity.
  - cbn [ordered] in H. destruct H as (Hpa & Hab & Hr). rewrite splice_cons, (IH s b Hr). cbn [bind fst snd replace_chars].
    destruct (N.ltb_spec b a); [lia |]. f_equal. cbn [rebuild].
    pose proof (ordered_le _ _ _ Hr) as Hb.
    unfold firstnN, skipnN, lenN in *.
    assert (Hlen : List.length (firstn (N.to_nat b) s) = N.to_nat b) by (apply firstn_length_le; lia).
    (* the first a characters of the partly rewritten text are the first a characters of s *)
    rewrite firstn_app. rewrite Hlen. replace (N.to_nat a - N.to_nat b)%nat with 0%nat by lia. cbn [firstn]. rewrite app_nil_r.
    rewrite firstn_firstn. replace (Nat.min (N.to_nat a) (N.to_nat b)) with (N.to_nat a) by lia.
    (* and from b on the text is what was built behind b *)
    rewrite skipn_app. rewrite Hlen. replace (N.to_nat b - N.to_nat b)%nat with 0%nat by lia. cbn [skipn].
    rewrite (skipn_all2 (firstn (N.to_nat b) s)) by lia. cbn [app].
    rewrite (firstn_skipn_split s (N.to_nat pos) (N.to_nat a)) by lia. rewrite <- !app_assoc. replace (N.to_nat (a - pos)) with (N.to_nat a - N.to_nat pos)%nat by lia.
    reflexivity.
Qed.

Corollary splice_keeps_prefix : forall reps s a b n, ordered 0 (((a, b), n) :: reps) (lenN s) ->
  exists rest, splice_all s (((a, b), n) :: reps) = Ok (firstnN a s ++ dec_of_N n ++ rest).
Proof.
  intros reps s a b n H. rewrite (splice_is_rebuild _ s 0 H). cbn [rebuild]. unfold firstnN, skipnN. cbn [N.to_nat firstn skipn app].
  rewrite N.sub_0_r. eexists. reflexivity.
Qed.

Example splice_example :
  splice_all (s2l "GOTO 10:GOSUB 20")%string [((5, 7), 100); ((14, 16), 1000)] = Ok (s2l "GOTO 100:GOSUB 1000")%string.
Proof. vm_compute. reflexivity. Qed.

From BL Require Import Lang.Lex Lang.Parse.
(* a line that does not parse is kept as it is *)
Theorem renum_line_unparsable : forall ch l e, parse (fst l) (snd l) = Err e -> line_renum ch l = Ok l.
Proof. intros ch l e Hp. unfold line_renum. rewrite Hp. reflexivity. Qed.
