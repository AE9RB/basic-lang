(* C07: lengths and pieces of strings counted in characters (firstnN / skipnN / lenN), the search behind INSTR, and STRING$.
   A string is a list of Unicode scalar values, so "never splits a character" holds by construction in the
   model; that the implementation's byte-level slicing agrees with it is what the correspondence check tests. *)
From BL Require Import Base.Prelude Mach.Val Mach.Func.
Local Open Scope N_scope.

Lemma lenN_cons {A} (x : A) l : lenN (x :: l) = lenN l + 1.
Proof. unfold lenN. cbn [length]. lia. Qed.
Lemma skipnN_succ {A} n (x : A) l : skipnN (n + 1) (x :: l) = skipnN n l.
Proof. unfold skipnN. rewrite N.add_1_r, N2Nat.inj_succ. reflexivity. Qed.
Lemma lenN_firstn {A} n (s : list A) : lenN (firstnN n s) = N.min n (lenN s).
Proof. unfold lenN, firstnN. rewrite firstn_length. lia. Qed.
Lemma lenN_skipn {A} n (s : list A) : lenN (skipnN n s) = lenN s - n.
Proof. unfold lenN, skipnN. rewrite skipn_length. lia. Qed.
Lemma firstn_skipn_N {A} n (s : list A) : firstnN n s ++ skipnN n s = s.
Proof. apply firstn_skipn. Qed.

Lemma starts_with_spec p s : starts_with p s = true <-> exists t, s = p ++ t.
Proof.
  revert s. induction p as [| x p IH]; intros s; cbn.
  - split; [intros _; exists s; reflexivity | reflexivity].
  - destruct s as [| y s]; [split; [discriminate | intros [t E]; discriminate] |].
    split.
    + intros H. apply andb_prop in H. destruct H as [H1 H2]. apply N.eqb_eq in H1. apply IH in H2. destruct H2 as [t ->].
      exists t. subst. reflexivity.
    + intros [t E]. injection E as -> ->. rewrite N.eqb_refl. cbn. apply IH. exists t. reflexivity.
Qed.

Lemma find_sub_some p : forall s i, find_sub p s = Some i ->
  starts_with p (skipnN i s) = true /\ i <= lenN s /\ forall j, j < i -> starts_with p (skipnN j s) = false.
Proof.
  induction s as [| c s IH]; intros i; cbn [find_sub].
  - destruct (starts_with p []) eqn:E; [| discriminate]. intros H. injection H as <-.
    split; [exact E | split; [apply N.le_0_l | intros j Hj; lia]].
  - destruct (starts_with p (c :: s)) eqn:E.
    + intros H. injection H as <-. split; [exact E | split; [apply N.le_0_l | intros j Hj; lia]].
    + destruct (find_sub p s) as [k |]; [| discriminate]. intros H. injection H as <-.
      destruct (IH k eq_refl) as (K1 & K2 & K3). rewrite skipnN_succ, lenN_cons. split; [exact K1 | split; [lia |]].
      intros j Hj. destruct (N.eq_dec j 0) as [-> | Hne]; [exact E |].
      replace j with (j - 1 + 1) by lia. rewrite skipnN_succ. apply K3. lia.
Qed.

Lemma find_sub_none p : forall s, find_sub p s = None -> forall j, starts_with p (skipnN j s) = false.
Proof.
  induction s as [| c s IH]; cbn [find_sub]; intros Hn j.
  - destruct (starts_with p []) eqn:E; [discriminate |]. unfold skipnN. destruct (N.to_nat j); exact E.
  - destruct (starts_with p (c :: s)) eqn:E; [discriminate |]. destruct (find_sub p s); [discriminate |].
    destruct (N.eq_dec j 0) as [-> | Hne]; [exact E |].
    replace j with (j - 1 + 1) by lia. rewrite skipnN_succ. apply IH. reflexivity.
Qed.

Lemma lenN_repeat {A} (c : A) n : lenN (repeatN c n) = n.
Proof. unfold lenN, repeatN. rewrite repeat_length. lia. Qed.

Lemma to_usize_int n : (0 <= n)%Z -> to_usize (VInt n) = Ok n.
Proof. intros H. unfold to_usize, to_unsigned. destruct (Z.leb_spec 0 n); [reflexivity | lia]. Qed.

Theorem string_spec : forall n c r, fn_string (VInt n) (VStr (c :: r)) = 
  match to_usize (VInt n) with
  | Ok m => if (255 <? m)%Z then err E_Overflow else Ok (VStr (repeatN c (Z.to_N m)))
  | Err e => Err e | Panic => Panic | Hang => Hang
  end.
Proof. intros n c r. unfold fn_string. destruct (to_usize (VInt n)) as [m | | |]; cbn; try reflexivity. Qed.
