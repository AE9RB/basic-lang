(* C08: conversion of a Single or a Double to a 16-bit (or other small) integer is floor plus a range check, for every bit
   pattern: once for any binary format, then for the two widths.
   From Flocq's correctness theorems for conversion from integers, rounding to an integer, comparison and truncation.
   At the end line_literal_all (C01), which rests on the Single case. *)
From BL Require Import Base.Prelude Base.Floats Mach.Val.
From Flocq Require Import Core.Core IEEE754.BinarySingleNaN IEEE754.Binary IEEE754.Bits.
From Coq Require Import Reals.
Local Open Scope Z_scope.

Section Format.
Variables prec emax : Z.
Context (Hp : Prec_gt_0 prec) (Hpe : Prec_lt_emax prec emax).
Variable nan_pl : Binary.binary_float prec emax -> {x : Binary.binary_float prec emax | Binary.is_nan prec emax x = true}.

Definition Bint (n : Z) : Binary.binary_float prec emax := Binary.binary_normalize prec emax Hp Hpe mode_NE n 0 false.

Lemma F2R_int n : F2R (Float radix2 n 0) = IZR n.
Proof. unfold F2R. cbn [Fnum Fexp bpow]. ring. Qed.

Lemma int_format n : Z.abs n < 2 ^ prec -> generic_format radix2 (FLT_exp (3 - emax - prec) prec) (IZR n).
Proof.
  intros Hn. apply generic_format_FLT. apply (FLT_spec radix2 (3 - emax - prec) prec (IZR n) (Float radix2 n 0)).
  - symmetry. apply F2R_int.
  - exact Hn.
  - cbn [Fexp]. unfold Prec_gt_0, Prec_lt_emax in Hp, Hpe. lia.
Qed.

Lemma Bint_props n : Z.abs n < 2 ^ prec ->
  Binary.B2R prec emax (Bint n) = IZR n /\ Binary.is_finite prec emax (Bint n) = true.
Proof.
  intros Hn. pose proof (binary_normalize_correct prec emax Hp Hpe mode_NE n 0 false) as H.
  rewrite F2R_int, (round_generic radix2 _ _ (IZR n) (int_format n Hn)) in H.
  rewrite Rlt_bool_true in H.
  - destruct H as (H1 & H2 & _). split; assumption.
  - rewrite <- abs_IZR. apply Rlt_trans with (bpow radix2 prec).
    + rewrite <- IZR_Zpower by (unfold Prec_gt_0 in Hp; lia). apply IZR_lt. exact Hn.
    + apply bpow_lt. exact Hpe.
Qed.

Lemma finite_not_nan (b : Binary.binary_float prec emax) : Binary.is_finite prec emax b = true -> Binary.is_nan prec emax b = false.
Proof. destruct b; cbn; congruence. Qed.

Lemma Btrunc_int b n : Binary.B2R prec emax b = IZR n -> Binary.Btrunc prec emax b = n.
Proof.
  intros H. apply eq_IZR. rewrite Btrunc_correct by exact Hpe. rewrite H, round_FIX_IZR, Ztrunc_IZR. reflexivity.
Qed.

Lemma le_ints x y a b : Binary.is_finite prec emax x = true -> Binary.is_finite prec emax y = true ->
  Binary.B2R prec emax x = IZR a -> Binary.B2R prec emax y = IZR b ->
  is_le (Binary.Bcompare prec emax x y) = (a <=? b).
Proof.
  intros Fx Fy Rx Ry. rewrite (Bcompare_correct prec emax x y Fx Fy), Rx, Ry, Rcompare_IZR.
  unfold is_le, Z.leb. destruct (a ?= b); reflexivity.
Qed.

Lemma le_infinity x s : Binary.is_finite prec emax x = true ->
  is_le (Binary.Bcompare prec emax x (Binary.B754_infinity prec emax s)) = negb s /\
  is_le (Binary.Bcompare prec emax (Binary.B754_infinity prec emax s) x) = s.
Proof. destruct x, s; try discriminate; split; reflexivity. Qed.

Lemma le_nan x y : Binary.is_nan prec emax x = true ->
  is_le (Binary.Bcompare prec emax x y) = false /\ is_le (Binary.Bcompare prec emax y x) = false.
Proof. destruct x; try discriminate. destruct y; split; reflexivity. Qed.

Definition Bfloor (x : Binary.binary_float prec emax) := Binary.Bnearbyint prec emax Hpe nan_pl mode_DN x.

Lemma Bfloor_props x :
  Binary.B2R prec emax (Bfloor x) = IZR (Zfloor (Binary.B2R prec emax x)) /\
  Binary.is_finite prec emax (Bfloor x) = Binary.is_finite prec emax x.
Proof.
  destruct (Bnearbyint_correct prec emax Hpe nan_pl mode_DN x) as (HR & HF & _).
  rewrite round_FIX_IZR in HR. split; assumption.
Qed.

(* a result goes through its bit pattern before it is used again, and a NaN comes back as the one canonical NaN *)
Definition canon_of (x y : Binary.binary_float prec emax) : Prop :=
  if Binary.is_nan prec emax x then Binary.is_nan prec emax y = true else y = x.

Lemma floor_in_range x y lo hi : Z.abs lo < 2 ^ prec -> Z.abs hi < 2 ^ prec -> canon_of (Bfloor x) y ->
  is_le (Binary.Bcompare prec emax (Bint lo) y) && is_le (Binary.Bcompare prec emax y (Bint hi)) =
  Binary.is_finite prec emax x && (lo <=? Zfloor (Binary.B2R prec emax x)) && (Zfloor (Binary.B2R prec emax x) <=? hi).
Proof.
  intros Hlo Hhi Hy. destruct (Bint_props lo Hlo) as [Rl Fl], (Bint_props hi Hhi) as [Rh Fh].
  destruct (Bfloor_props x) as [HR HF]. unfold canon_of in Hy.
  destruct (Binary.is_finite prec emax x) eqn:Efin.
  - (* finite: the floor is a finite float with an integer value *)
    rewrite (finite_not_nan _ HF) in Hy. subst y.
    rewrite (le_ints _ _ _ _ Fl HF Rl HR), (le_ints _ _ _ _ HF Fh HR Rh). reflexivity.
  - destruct x as [s | s | s pl Hpl | s m e Hb]; try discriminate Efin.
    + (* infinity: the floor is the same infinity, and one of the two comparisons fails *)
      change (y = Binary.B754_infinity prec emax s) in Hy. subst y.
      rewrite (proj1 (le_infinity _ s Fl)), (proj2 (le_infinity _ s Fh)). destruct s; reflexivity.
    + (* NaN: every comparison with it fails *)
      change (Binary.is_nan prec emax y = true) in Hy. rewrite (proj2 (le_nan y _ Hy)). reflexivity.
Qed.

Lemma floor_trunc x y : canon_of (Bfloor x) y -> Binary.is_finite prec emax x = true ->
  Binary.Btrunc prec emax y = Zfloor (Binary.B2R prec emax x).
Proof.
  intros Hy Fx. destruct (Bfloor_props x) as [HR HF]. rewrite Fx in HF.
  unfold canon_of in Hy. rewrite (finite_not_nan _ HF) in Hy. subst y. exact (Btrunc_int _ _ HR).
Qed.
End Format.

(* what the two range tests leave of the saturating cast *)
Lemma cast_unused (t : bool) f hi : (if t && (f <=? hi) then @Ok Z (Z.min f hi) else err E_Overflow) = (if t && (f <=? hi) then Ok f else err E_Overflow).
Proof. destruct t; cbn [andb]; [| reflexivity]. destruct (Z.leb_spec f hi); [rewrite Z.min_l by lia |]; reflexivity. Qed.

Lemma tested_range (t : bool) lo hi f cast z : lo <= cast ->
  (if t && (lo <=? f) && (f <=? hi) then Ok (Z.min f cast) else err E_Overflow) = Ok z -> lo <= z <= hi.
Proof.
  intros Hc H. destruct (t && (lo <=? f) && (f <=? hi)) eqn:E; [| discriminate H]. injection H as <-.
  apply andb_prop in E. destruct E as [E1 E2]. apply andb_prop in E1. destruct E1 as [_ E1]. apply Z.leb_le in E1, E2. lia.
Qed.

Lemma bits_back32 (b : binary32) : Binary.is_nan 24 128 b = false -> b32_of_bits (canon32 b) = b.
Proof.
  intros H. unfold canon32. rewrite H. unfold b32_of_bits, bits_of_b32.
  exact (binary_float_of_bits_of_binary_float 23 8 eq_refl eq_refl eq_refl b).
Qed.

Lemma canon32_back (b : binary32) : canon_of 24 128 b (b32_of_bits (canon32 b)).
Proof.
  unfold canon_of. destruct (Binary.is_nan 24 128 b) eqn:E; [| exact (bits_back32 b E)].
  unfold canon32. rewrite E. vm_compute. reflexivity.
Qed.

Lemma of_Z_back32 n : Z.abs n < 2 ^ 24 -> b32_of_bits (f32_of_Z n) = Bint 24 128 Hp32 Hpe32 n.
Proof.
  intros Hn. unfold f32_of_Z, norm32. apply bits_back32. apply finite_not_nan. exact (proj2 (Bint_props 24 128 Hp32 Hpe32 n Hn)).
Qed.

Lemma f32_to_Z_of_Z n : Z.abs n < 2 ^ 24 -> f32_to_Z (f32_of_Z n) = n.
Proof.
  intros Hn. unfold f32_to_Z. rewrite (of_Z_back32 n Hn).
  apply (Btrunc_int 24 128 Hpe32). exact (proj1 (Bint_props 24 128 Hp32 Hpe32 n Hn)).
Qed.

Definition floor_of (x : binary32) : Z := Zfloor (Binary.B2R 24 128 x).

Theorem float_to_int32_spec : forall b lo hi cast, Z.abs lo <= 16777215 -> Z.abs hi <= 16777215 ->
  float_to_int32 b lo hi cast =
  (if Binary.is_finite 24 128 (b32_of_bits b) && (lo <=? floor_of (b32_of_bits b)) && (floor_of (b32_of_bits b) <=? hi)
   then Ok (Z.min (floor_of (b32_of_bits b)) cast) else err E_Overflow).
Proof.
  intros b lo hi cast Hlo Hhi. assert (H24 : 16777215 < 2 ^ 24) by reflexivity.
  pose proof (canon32_back (Bfloor 24 128 Hpe32 unop_nan_pl32 (b32_of_bits b))) as Hy. unfold Bfloor in Hy.
  unfold float_to_int32, f32_floor, f32_le, cmp32, b32_compare, f32_to_Z. cbv zeta.
  rewrite (of_Z_back32 lo), (of_Z_back32 hi) by lia.
  rewrite (floor_in_range 24 128 Hp32 Hpe32 _ _ _ lo hi ltac:(lia) ltac:(lia) Hy).
  destruct (Binary.is_finite 24 128 (b32_of_bits b)) eqn:Fx; [| reflexivity].
  rewrite (floor_trunc 24 128 Hpe32 _ _ _ Hy Fx). reflexivity.
Qed.

Lemma bits_back64 (b : binary64) : Binary.is_nan 53 1024 b = false -> b64_of_bits (canon64 b) = b.
Proof.
  intros H. unfold canon64. rewrite H. unfold b64_of_bits, bits_of_b64.
  exact (binary_float_of_bits_of_binary_float 52 11 eq_refl eq_refl eq_refl b).
Qed.

Lemma canon64_back (b : binary64) : canon_of 53 1024 b (b64_of_bits (canon64 b)).
Proof.
  unfold canon_of. destruct (Binary.is_nan 53 1024 b) eqn:E; [| exact (bits_back64 b E)].
  unfold canon64. rewrite E. vm_compute. reflexivity.
Qed.

Lemma of_Z_back64 n : Z.abs n < 2 ^ 53 -> b64_of_bits (f64_of_Z n) = Bint 53 1024 Hp64 Hpe64 n.
Proof.
  intros Hn. unfold f64_of_Z, norm64. apply bits_back64. apply finite_not_nan. exact (proj2 (Bint_props 53 1024 Hp64 Hpe64 n Hn)).
Qed.

Definition floor_of64 (x : binary64) : Z := Zfloor (Binary.B2R 53 1024 x).

Theorem float_to_int64_spec : forall b lo hi cast, Z.abs lo <= 16777215 -> Z.abs hi <= 16777215 ->
  float_to_int64 b lo hi cast =
  (if Binary.is_finite 53 1024 (b64_of_bits b) && (lo <=? floor_of64 (b64_of_bits b)) && (floor_of64 (b64_of_bits b) <=? hi)
   then Ok (Z.min (floor_of64 (b64_of_bits b)) cast) else err E_Overflow).
Proof.
  intros b lo hi cast Hlo Hhi. assert (H53 : 16777215 < 2 ^ 53) by reflexivity.
  pose proof (canon64_back (Bfloor 53 1024 Hpe64 unop_nan_pl64 (b64_of_bits b))) as Hy. unfold Bfloor in Hy.
  unfold float_to_int64, f64_floor, f64_le, cmp64, b64_compare, f64_to_Z. cbv zeta.
  rewrite (of_Z_back64 lo), (of_Z_back64 hi) by lia.
  rewrite (floor_in_range 53 1024 Hp64 Hpe64 _ _ _ lo hi ltac:(lia) ltac:(lia) Hy).
  destruct (Binary.is_finite 53 1024 (b64_of_bits b)) eqn:Fx; [| reflexivity].
  rewrite (floor_trunc 53 1024 Hpe64 _ _ _ Hy Fx). reflexivity.
Qed.

(* C01: the Single that holds a line number n (as the parser writes branch targets: f32_of_Z n) denotes n both in the
   compiler's reading (floor, range test, cast) and in the reference reading (truncation), for every n at once. *)
Theorem line_literal_all : forall n : N, (n <= 65529)%N ->
  to_line_number (VSng (f32_of_Z (Z.of_N n))) = Ok n /\ Z.to_N (f32_to_Z (f32_of_Z (Z.of_N n))) = n.
Proof.
  intros n Hle. set (z := Z.of_N n). assert (H24 : 65535 < 2 ^ 24) by reflexivity.
  assert (Hz : 0 <= z <= 65529) by (unfold z; lia). split.
  - (* to_u16 is float_to_int32 with the range 0..65535; the literal is the finite float of value z, and its floor is z *)
    unfold to_line_number, to_u16, to_unsigned. rewrite float_to_int32_spec by lia.
    rewrite (of_Z_back32 z) by lia. destruct (Bint_props 24 128 Hp32 Hpe32 z ltac:(lia)) as [Hr Hf].
    unfold floor_of. rewrite Hr, Hf, Zfloor_IZR.
    destruct (Z.leb_spec 0 z); [| lia]. destruct (Z.leb_spec z 65535); [| lia]. cbn [andb bind].
    rewrite Z.min_l by lia. destruct (Z.leb_spec z 65529); [| lia]. unfold z. rewrite N2Z.id. reflexivity.
  - rewrite (f32_to_Z_of_Z z) by lia. apply N2Z.id.
Qed.
Print Assumptions line_literal_all.
