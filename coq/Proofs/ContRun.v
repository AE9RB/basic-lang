(* For C13 -- interrupt, STOP and END are transparent under CONT; the theorems are in Props/C13.v.  Proofs/ContTrip.v brings
   the machine back up to three fields, Proofs/DeadFields.v shows that no run reads them; here the two are put together for one
   execute() call (execute_ignores_dead_fields, cont_after_parking), with the steps for STOP and END inside the program
   (stop_stops, end_ends, ended_is_parked) and for an INPUT prompt and its reply (prompt_ignores_dead_fields,
   enter_input_lens).  safe_calls is the premise for a sequence of calls; safe_run_b, tidy_b, parked_b decide the premises on
   the example machines at the end. *)
From BL Require Import Base.Prelude Base.Floats Mach.Val Mach.Ops Mach.Func Mach.Var
     Lang.Token Lang.Lex Lang.Ast Lang.Parse Mach.Compile Mach.Listing Mach.Runtime Proofs.RMFrame Proofs.Dirty Proofs.Slicing Proofs.ContTrip Proofs.DeadFields.
From Coq Require Import Lia.
Local Open Scope N_scope.

Section ContRun.
Variable O : oracle.

(* the same answer, on machines that differ in the three fields *)
Definition same_up_to (ops : list opcode) (x y : res (rt * event)) : Prop :=
  match y with
  | Ok (r3, e) => exists c t, x = Ok (L c t ops r3, e)
  | Err e => x = Err e
  | Panic => x = Panic
  | Hang => x = Hang
  end.

(* to rewrite with: the same step by `change` leaves a conversion that takes Qed half a second *)
Lemma lens_state c t ops r : r_state (L c t ops r) = r_state r.
Proof. reflexivity. Qed.

Lemma save_error_lens : forall c t ops r2 e st,
  save_error (L c t ops r2) e st = L (r_pc r2) t ops (save_error r2 e st).
Proof.
  intros c t ops r2 e st. unfold save_error. lens_cbn. unfold stack_is_full. lens_cbn.
  destruct ((r_entry r2 <=? r_pc r2) || (MAX_POOL - 32 <? r_slen r2)); reflexivity.
Qed.

Lemma after_loop_lens : forall c t ops r2 x,
  same_up_to ops (after_loop (L c t ops r2, x)) (after_loop (r2, x)).
Proof.
  intros c t ops r2 x.
  destruct x as [ev | e | |]; cbn [after_loop]; try reflexivity; rewrite lens_state.
  - destruct (r_state r2); try (exists c, t; reflexivity).
    destruct ev; try (exists c, t; reflexivity).
    unfold ready_prompt. change (r_entry (L c t ops r2)) with (r_entry r2).
    destruct (negb (r_entry r2 =? 0)); [| exists c, t; reflexivity].
    lens_cbn. destruct (0 <? r_col r2); exists c, t; reflexivity.
  - destruct (r_state r2); try (rewrite save_error_lens; exists (r_pc r2), t; reflexivity).
    change (r_stack (L c t ops r2)) with (r_stack r2).
    destruct (unwind_input (r_stack r2)) as [s [a |]]; exists c, t; reflexivity.
Qed.

Definition has_ind (r : rt) : bool := match ls_ind_errors (r_listing r) with [] => false | _ => true end.

(* one execute() call of a machine in a running state: the loop (Proofs/DeadFields.v), then the call's epilogue *)
Theorem execute_ignores_dead_fields : forall r k e0 c t ops,
  running_state (r_state r) = true -> ls_dir_errors (r_listing r) = [] ->
  safe_run O e0 (N.to_nat k) (has_ind r) r -> firstnN e0 ops = firstnN e0 (l_ops (pg_link (r_prog r))) ->
  same_up_to ops (rt_execute O (L c t ops r) k) (rt_execute O r k).
Proof.
  intros r k e0 c t ops Hs Hd Hsafe Hag.
  rewrite (exec_running O r k Hs Hd). rewrite (exec_running O (L c t ops r) k) by assumption.
  change (r_listing (L c t ops r)) with (r_listing r). fold (has_ind r).
  destruct (run_ignores_dead_fields O (N.to_nat k) (has_ind r) e0 r c t ops Hsafe Hag) as [c' [t' E]]. rewrite E.
  destruct (exec_loop O (N.to_nat k) (has_ind r) r) as [r2 x]. cbn [fst snd]. apply after_loop_lens.
Qed.

(* what RUN leaves behind besides a linked program *)
Definition tidy (r : rt) : Prop :=
  r_cont r = StStopped /\ r_listing r = mkListing (ls_lines (r_listing r)) (pg_ind_errors (r_prog r)) []
  /\ pg_errors (r_prog r) = [] /\ pg_line (r_prog r) = None.

Lemma tidy_dir r : tidy r -> ls_dir_errors (r_listing r) = [].
Proof. intros (_ & Hl & _). rewrite Hl. reflexivity. Qed.

(* the machine at the prompt with state st and the address of its next instruction saved in the continuation slot: where
   an interrupt, a STOP and an END all leave it once the report has been made *)
Definition parked (r : rt) (st : rstate) : rt := at_prompt (set_cont_pc (set_cont r st) (r_pc r)).

Lemma resumed_parked : forall r st, r_state r = st -> r_col r = 0 -> Linked (r_prog r) -> tidy r ->
  r_entry r = pg_direct (r_prog r) ->
  resumed (parked r st) = L (r_pc r) None (firstnN (pg_direct (r_prog r)) (l_ops (pg_link (r_prog r))) ++ [OpCont; OpEnd]) r.
Proof.
  intros r st Hs Hcol HL (Hc & Hl & Hpe & Hpl) He.
  destruct HL as [Hu Hw Hcu _ _ _ _ _ _].
  destruct r as [prompt listing snap dirty prog pc tr tron entry stack slen vars state cont cont_pc col rand fns ent].
  destruct prog as [perrs pind pdir pline plink]. destruct plink as [lcur lops ldata ldpos ldset lsyms lunl lwh].
  cbn in Hs, Hcol, Hu, Hw, Hcu, Hc, Hl, Hpe, Hpl, He. subst.
  unfold resumed, entered, parked, at_prompt, cont_prog, L, with_ops. cbn. rewrite Hl. reflexivity.
Qed.

Lemma cont_after_parking : forall r k,
  r_state r = StRunning -> r_dirty r = false -> r_tron r = false -> Linked (r_prog r) ->
  r_entry r = pg_direct (r_prog r) -> r_col r = 0 -> tidy r ->
  safe_run O (r_entry r) (N.to_nat k) (has_ind r) r ->
  rt_enter O (parked r StRunning) cont_text = Ok (entered (parked r StRunning), true)
  /\ same_up_to (firstnN (pg_direct (r_prog r)) (l_ops (pg_link (r_prog r))) ++ [OpCont; OpEnd])
                (rt_execute O (entered (parked r StRunning)) (N.succ k)) (rt_execute O r k).
Proof.
  intros r k Hs Hd Ht HL He Hcol Htidy Hsafe.
  destruct (cont_at_prompt_resumes O (parked r StRunning) k I eq_refl Hd Ht HL) as [H1 H2].
  split; [exact H1 |]. rewrite H2, (resumed_parked r _ Hs Hcol HL Htidy He).
  apply (execute_ignores_dead_fields r k (r_entry r)); [rewrite Hs; reflexivity | exact (tidy_dir r Htidy) | exact Hsafe |].
  rewrite He. exact (cont_prog_keeps_code _ (lk_len _ HL)).
Qed.

(* the machine the STOP instruction leaves behind: the error path of execute() has saved state and address *)
Definition stopped_at (r : rt) : rt :=
  let r2 := set_pc r (r_pc r + 1) in
  set_cont_pc (set_cont (set_state r2 (StRuntimeError (in_line (mkErr E_Break None (0, 0)) (cur_line r2)))) StRunning) (r_pc r2).

Lemma stop_stops : forall r j, r_state r = StRunning -> ls_dir_errors (r_listing r) = [] -> r_tron r = false ->
  nthN (l_ops (pg_link (r_prog r))) (r_pc r) = Some OpStop -> r_pc r + 1 < r_entry r -> stack_is_full r = false ->
  rt_execute O r (N.succ j) = Ok (stopped_at r, EvRunning).
Proof.
  intros r j Hs Hd Ht Hop Hpc Hfull. rewrite (exec_running O r (N.succ j)) by (rewrite ?Hs; trivial). rewrite N2Nat.inj_succ.
  rewrite (exec_loop_S_notron O _ _ r Ht). rewrite one_op_eq, Hop. cbn [exec_op]. unfold rfail, err. cbn [after_loop].
  change (r_state (set_pc r (r_pc r + 1))) with (r_state r). rewrite Hs, save_error_keeps by assumption. reflexivity.
Qed.

(* the machine at the prompt after an END statement inside the program *)
Definition ended_at (r : rt) : rt :=
  let r2 := set_pc r (r_pc r + 1) in
  set_entry (set_state (set_cont_pc (set_state (set_cont r2 StRunning) (r_cont r)) (r_pc r2)) StStopped) 0.

Lemma end_ends : forall r j, r_state r = StRunning -> ls_dir_errors (r_listing r) = [] -> r_tron r = false ->
  nthN (l_ops (pg_link (r_prog r))) (r_pc r) = Some OpEnd -> r_pc r + 1 < r_entry r -> r_col r = 0 ->
  rt_execute O r (N.succ j) = Ok (ended_at r, EvPrint (match r_prompt r with [] => [] | p => p ++ [c_nl] end)).
Proof.
  intros r j Hs Hd Ht Hop Hpc Hcol. rewrite (exec_running O r (N.succ j)) by (rewrite ?Hs; trivial). rewrite N2Nat.inj_succ.
  rewrite (exec_loop_S_notron O _ _ r Ht). rewrite one_op_eq, Hop. cbn [exec_op]. unfold rbind, do_end.
  cbn [r_pc r_entry set_pc]. destruct (N.ltb_spec (r_pc r + 1) (r_entry r)); [| lia].
  cbn [r_pc r_entry set_cont_pc set_state set_cont set_pc r_state r_cont].
  destruct (N.eqb_spec (r_pc r + 1) (r_entry r)); [lia |]. unfold rret. cbn [after_loop r_state set_state].
  rewrite ready_prompt_col0 by (cbn; lia || assumption). rewrite Hs. reflexivity.
Qed.

Lemma ended_is_parked : forall r, r_cont r = StStopped -> r_col r = 0 ->
  ended_at r = parked (set_pc r (r_pc r + 1)) StRunning.
Proof. intros r Hc Hcol. destruct r. cbn in Hc, Hcol. subst. reflexivity. Qed.

Lemma lensed_execute_input : lensed execute_input.
Proof. unfold execute_input. lens_walk. Qed.

Theorem prompt_ignores_dead_fields : forall r k c t ops, r_state r = StInput ->
  same_up_to ops (rt_execute O (L c t ops r) k) (rt_execute O r k).
Proof.
  intros r k c t ops Hs. rewrite !execute_eq. unfold before_loop. rewrite lens_state, Hs.
  destruct (lensed_execute_input ops c t r) as [c1 [t1 E]]. rewrite E.
  destruct (execute_input r) as [r1 [ev | e | |]]; cbn [fst snd bind same_up_to]; try reflexivity.
  - exists c1, t1. reflexivity.
  - (* the error goes through the error state: this call answers the forced line break or the error *)
    cbn [r_state set_state r_col]. change (r_col (L c1 t1 ops r1)) with (r_col r1).
    change (cur_line (L c1 t1 ops r1)) with (cur_line r1).
    destruct (0 <? r_col r1); exists c1, t1; reflexivity.
Qed.

Lemma enter_input_lens : forall r s c t ops, exists c' t', enter_input O (L c t ops r) s = L c' t' ops (enter_input O r s).
Proof.
  intros r s c t ops. unfold enter_input. destruct (MAX_LINE_LEN <? utf8_len s); [exists c, t; reflexivity |].
  change (r_stack (L c t ops r)) with (r_stack r). change (r_pc (L c t ops r)) with (r_pc r).
  assert (Hclear : forall c t r, fst (do_clear O (L c t ops r)) = L c t ops (fst (do_clear O r))) by reflexivity.
  destruct (r_stack r) as [| v st]; [rewrite Hclear; exists c, t; reflexivity |].
  destruct v; try (rewrite Hclear; exists c, t; reflexivity).
  match goal with |- context [if ?b then set_state _ StInputRedo else _] => destruct b end; [exists c, t; reflexivity |].
  match goal with |- context [match ?m (L c t ops r) with _ => _ end] =>
    assert (Hm : lensed m) by (intros ops'; lens_walk; apply (closed_fold_push _ (sim_closed _) _ VStr); [intros ? |]; lens_walk);
    destruct (Hm ops c t r) as [c1 [t1 E]]; rewrite E; destruct (m r) as [r1 [u | e | |]]; cbn [fst snd] end;
    rewrite ?Hclear; exists c1, t1; reflexivity.
Qed.

Fixpoint safe_calls (e0 : N) (ks : list N) (r : rt) : Prop :=
  match ks with
  | [] => True
  | k :: ks' => r_state r = StRunning /\ ls_dir_errors (r_listing r) = [] /\ safe_run O e0 (N.to_nat k) (has_ind r) r /\
                match rt_execute O r k with Ok (r3, _) => safe_calls e0 ks' r3 | _ => True end
  end.

Definition same_trace (ops : list opcode) (x y : res (rt * list event)) : Prop :=
  match y with
  | Ok (r3, evs) => exists c t, x = Ok (L c t ops r3, evs)
  | Err e => x = Err e
  | Panic => x = Panic
  | Hang => x = Hang
  end.

Fixpoint safe_run_b (e0 : N) (fuel : nat) (h : bool) (r : rt) : bool :=
  match fuel with
  | 0%nat => true
  | S f => (r_pc r <? e0) && negb (r_tron r) && is_stopped (r_cont r) &&
           match one_op O h r with (r2, Ok None) => safe_run_b e0 f h r2 | _ => true end
  end.

Lemma safe_run_b_ok : forall fuel e0 h r, safe_run_b e0 fuel h r = true -> safe_run O e0 fuel h r.
Proof.
  induction fuel as [| f IH]; intros e0 h r H; [exact I |]. cbn [safe_run_b] in H. cbn [safe_run].
  repeat (apply andb_prop in H; destruct H as [H ?]).
  split; [apply N.ltb_lt; assumption |]. split; [destruct (r_tron r); [discriminate | reflexivity] |].
  split; [destruct (r_cont r); try discriminate; reflexivity |].
  destruct (one_op O h r) as [r2 [[ev |] | e | |]]; try exact I. apply IH. assumption.
Qed.
End ContRun.

Definition tidy_b (r : rt) : bool :=
  is_stopped (r_cont r) &&
  match ls_ind_errors (r_listing r), pg_ind_errors (r_prog r), ls_dir_errors (r_listing r), pg_errors (r_prog r), pg_line (r_prog r) with
  | [], [], [], [], None => true
  | _, _, _, _, _ => false
  end.

Definition parked_b (a : N) (r : rt) : bool := in_program_b a r && (r_col r =? 0) && tidy_b r.

Lemma parked_b_ok : forall a r (Q : Prop), parked_b a r = true -> Q ->
  a < r_entry r /\ r_dirty r = false /\ r_tron r = false /\ Linked (r_prog r) /\ r_entry r = pg_direct (r_prog r)
  /\ r_col r = 0 /\ tidy r /\ Q.
Proof.
  intros a r Q H HQ. unfold parked_b in H. rewrite !andb_true_iff in H. destruct H as ((Hp & Hc) & Ht).
  apply in_program_b_ok; [exact Hp |]. split; [apply N.eqb_eq; exact Hc |]. split; [| exact HQ]. unfold tidy_b in Ht. apply andb_prop in Ht. destruct Ht as [Hs Ht]. unfold tidy.
  destruct (r_cont r); try discriminate Hs. destruct (r_listing r) as [ls ie de]. cbn [ls_ind_errors ls_dir_errors ls_lines] in *.
  destruct ie, (pg_ind_errors (r_prog r)), de, (pg_errors (r_prog r)), (pg_line (r_prog r)); try discriminate Ht. repeat split.
Qed.

(* non-vacuity: a loop interrupted inside a comparison, cursor in column 0 *)
From BL Require Import Drv.Driver.
Require Import String.

Definition loop_machine : rt :=
  let O := dummy_oracle in
  let r0 := ok_ex (rt_execute O rt_default 5000) in
  let r1 := ok_rt (rt_enter O r0 (s2l "10 A=A+1")) in
  let r2 := ok_rt (rt_enter O r1 (s2l "20 IF A<9 THEN 10")) in
  let r3 := ok_rt (rt_enter O r2 (s2l "30 PRINT A;")) in
  let r4 := ok_ex (rt_execute O r3 5000) in
  let r5 := ok_rt (rt_enter O r4 (s2l "RUN")) in
  ok_ex (rt_execute O r5 8).

Example transparent_premises :
  let r := loop_machine in
  r_state r = StRunning /\ r_pc r < r_entry r /\ r_dirty r = false /\ r_tron r = false /\ Linked (r_prog r)
  /\ r_entry r = pg_direct (r_prog r) /\ r_col r = 0 /\ tidy r /\ r_stack r <> nil
  /\ safe_run dummy_oracle (r_entry r) (N.to_nat 200) (has_ind r) r
  /\ forallb not_edit (l_ops (pg_link (r_prog r))) = true.
Proof.
  cbn zeta. set (r := loop_machine).
  assert (H : is_running (r_state r) && parked_b (r_pc r) r && match r_stack r with [] => false | _ => true end
              && safe_run_b dummy_oracle (r_entry r) (N.to_nat 200) (has_ind r) r
              && forallb not_edit (l_ops (pg_link (r_prog r))) = true) by (vm_compute; reflexivity).
  clearbody r. rewrite !andb_true_iff in H. destruct H as ((((Hs & Hp) & Hst) & Hrun) & Hne).
  split; [apply is_running_eq; exact Hs |]. apply parked_b_ok; [exact Hp |].
  split; [intros E; rewrite E in Hst; discriminate Hst |]. split; [apply safe_run_b_ok; exact Hrun | exact Hne].
Qed.

(* and the statement on this machine, computed: the CONT call with budget 201 prints what the uninterrupted call with budget 200 prints *)
Example transparent_on_loop_machine :
  let r := loop_machine in
  match rt_execute dummy_oracle (entered (at_prompt (rt_interrupt r))) 201, rt_execute dummy_oracle r 200 with
  | Ok (_, e1), Ok (_, e2) => e1 = e2 /\ e1 = EvPrint (s2l " 9 ")
  | _, _ => False
  end.
Proof. vm_compute. split; reflexivity. Qed.

(* non-vacuity for STOP and END: machines standing in front of the instruction, reached through enter / execute only *)
Definition before_word (word : string) : rt :=
  let O := dummy_oracle in
  let r0 := ok_ex (rt_execute O rt_default 5000) in
  let r1 := ok_rt (rt_enter O r0 (s2l "10 A=1")) in
  let r2 := ok_rt (rt_enter O r1 (s2l ("20 " ++ word))) in
  let r3 := ok_rt (rt_enter O r2 (s2l "30 A=A+1")) in
  let r4 := ok_rt (rt_enter O r3 (s2l "40 PRINT A;")) in
  let r5 := ok_ex (rt_execute O r4 5000) in
  let r6 := ok_rt (rt_enter O r5 (s2l "RUN")) in
  ok_ex (rt_execute O r6 4).

Example stop_premises :
  let r := before_word "STOP" in
  r_state r = StRunning /\ r_pc r + 1 < r_entry r /\ r_dirty r = false /\ r_tron r = false /\ Linked (r_prog r)
  /\ r_entry r = pg_direct (r_prog r) /\ r_col r = 0 /\ tidy r /\ stack_is_full r = false
  /\ nthN (l_ops (pg_link (r_prog r))) (r_pc r) = Some OpStop
  /\ safe_run dummy_oracle (r_entry r) (N.to_nat 50) (has_ind r) (set_pc r (r_pc r + 1)).
Proof.
  cbn zeta. set (r := before_word "STOP").
  assert (H : is_running (r_state r) && parked_b (r_pc r + 1) r && negb (stack_is_full r)
              && match nthN (l_ops (pg_link (r_prog r))) (r_pc r) with Some OpStop => true | _ => false end
              && safe_run_b dummy_oracle (r_entry r) (N.to_nat 50) (has_ind r) (set_pc r (r_pc r + 1)) = true)
    by (vm_compute; reflexivity).
  clearbody r. rewrite !andb_true_iff in H. destruct H as ((((Hs & Hp) & Hf) & Hop) & Hrun).
  split; [apply is_running_eq; exact Hs |]. apply parked_b_ok; [exact Hp |].
  split; [apply negb_true_iff; exact Hf |]. split; [| apply safe_run_b_ok; exact Hrun].
  destruct (nthN (l_ops (pg_link (r_prog r))) (r_pc r)) as [[] |]; (reflexivity || discriminate Hop).
Qed.

Example end_premises :
  let r := before_word "END" in
  r_state r = StRunning /\ r_pc r + 1 < r_entry r /\ r_dirty r = false /\ r_tron r = false /\ Linked (r_prog r)
  /\ r_entry r = pg_direct (r_prog r) /\ r_col r = 0 /\ tidy r
  /\ nthN (l_ops (pg_link (r_prog r))) (r_pc r) = Some OpEnd
  /\ safe_run dummy_oracle (r_entry r) (N.to_nat 50) (has_ind r) (set_pc r (r_pc r + 1)).
Proof.
  cbn zeta. set (r := before_word "END").
  assert (H : is_running (r_state r) && parked_b (r_pc r + 1) r
              && match nthN (l_ops (pg_link (r_prog r))) (r_pc r) with Some OpEnd => true | _ => false end
              && safe_run_b dummy_oracle (r_entry r) (N.to_nat 50) (has_ind r) (set_pc r (r_pc r + 1)) = true)
    by (vm_compute; reflexivity).
  clearbody r. rewrite !andb_true_iff in H. destruct H as (((Hs & Hp) & Hop) & Hrun).
  split; [apply is_running_eq; exact Hs |]. apply parked_b_ok; [exact Hp |].
  split; [| apply safe_run_b_ok; exact Hrun].
  destruct (nthN (l_ops (pg_link (r_prog r))) (r_pc r)) as [[] |]; (reflexivity || discriminate Hop).
Qed.
Definition before_stop : rt := before_word "STOP".
Definition before_end : rt := before_word "END".

(* non-vacuity: a program waiting at its INPUT prompt *)
Definition waiting_machine : rt :=
  let O := dummy_oracle in
  let r0 := ok_ex (rt_execute O rt_default 5000) in
  let r1 := ok_rt (rt_enter O r0 (s2l "10 A=5")) in
  let r2 := ok_rt (rt_enter O r1 (s2l "20 INPUT N")) in
  let r3 := ok_rt (rt_enter O r2 (s2l "30 PRINT A+N")) in
  let r4 := ok_ex (rt_execute O r3 5000) in
  let r5 := ok_rt (rt_enter O r4 (s2l "RUN")) in
  ok_ex (rt_execute O r5 5000).
Example waiting_premises :
  let r := waiting_machine in
  r_state r = StInput /\ r_pc r < r_entry r /\ r_dirty r = false /\ r_tron r = false /\ Linked (r_prog r)
  /\ r_entry r = pg_direct (r_prog r) /\ r_col r = 0 /\ tidy r /\ r_stack r <> nil.
Proof.
  cbn zeta. set (r := waiting_machine).
  assert (H : match r_state r with StInput => true | _ => false end && parked_b (r_pc r) r
              && match r_stack r with [] => false | _ => true end = true) by (vm_compute; reflexivity).
  clearbody r. rewrite !andb_true_iff in H. destruct H as ((Hs & Hp) & Hst).
  split; [destruct (r_state r); (reflexivity || discriminate Hs) |]. apply parked_b_ok; [exact Hp |].
  intros E. rewrite E in Hst. discriminate Hst.
Qed.
