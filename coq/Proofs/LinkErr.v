(* C19: a branch to a line that does not exist is reported by the linker as UNDEFINED LINE, with the line the branch stands
   on and the column range the parser recorded for the number -- and it changes no instruction.  That line_number_for finds
   the line the branch stands on: address_belongs_to_line. *)
From BL Require Import Base.Prelude Mach.Compile Proofs.Reloc Proofs.ExprCompile Proofs.Flow Proofs.Flow2.
Local Open Scope N_scope.

Section LinkErr.
Variable syms : list (Z * (N * N)).

Lemma lstep_errs_grow acc e : exists more, snd (lstep syms acc e) = snd acc ++ more.
Proof.
  destruct acc as [ops errs]. destruct e as [addr [c sym]]. unfold lstep. cbn [snd].
  destruct (zassoc_get sym syms) as [dest |].
  - destruct (nthN ops addr) as [op |]; [destruct (patch_op op dest) |]; cbn [snd]; eexists; try reflexivity. rewrite app_nil_r. reflexivity.
  - destruct (0 <=? sym)%Z; cbn [snd]; eexists; reflexivity.
Qed.

Lemma fold_errs_grow : forall unl acc, exists more, snd (fold_left (lstep syms) unl acc) = snd acc ++ more.
Proof.
  induction unl as [| e r IH]; intros acc; cbn [fold_left]; [exists []; rewrite app_nil_r; reflexivity |].
  destruct (IH (lstep syms acc e)) as [m1 E1]. destruct (lstep_errs_grow acc e) as [m0 E0]. rewrite E1, E0, <- app_assoc. eexists. reflexivity.
Qed.

Theorem undefined_line_reported : forall unl acc addr c sym, In (addr, (c, sym)) unl -> zassoc_get sym syms = None -> (0 <= sym)%Z ->
  In (mkErr E_UndefinedLine (line_number_for syms addr) c) (snd (fold_left (lstep syms) unl acc)).
Proof.
  induction unl as [| e r IH]; intros acc addr c sym Hin Hn Hs; [destruct Hin |]. cbn [fold_left]. destruct Hin as [-> | Hin].
  - destruct (fold_errs_grow r (lstep syms acc (addr, (c, sym)))) as [more E]. rewrite E. apply in_or_app. left.
    destruct acc as [ops errs]. unfold lstep. rewrite Hn. destruct (Z.leb_spec 0 sym); [| lia]. cbn [snd]. apply in_or_app. right. left. reflexivity.
  - exact (IH _ addr c sym Hin Hn Hs).
Qed.

Theorem undefined_line_keeps_code : forall acc addr c sym, zassoc_get sym syms = None -> fst (lstep syms acc (addr, (c, sym))) = fst acc.
Proof. intros [ops errs] addr c sym Hn. unfold lstep. rewrite Hn. destruct (0 <=? sym)%Z; reflexivity. Qed.

End LinkErr.

Definition best_step (addr : N) (acc : option Z) (e : Z * (N * N)) : option Z :=
  let '(k, (a, _)) := e in
  if (0 <=? k)%Z && (a <=? addr) then match acc with Some k' => if (k' <? k)%Z then Some k else acc | None => Some k end else acc.

Lemma line_number_for_fold syms addr :
  line_number_for syms addr = match fold_left (best_step addr) syms None with
                              | Some k => if (k <=? 65529)%Z then Some (Z.to_N k) else None
                              | None => None
                              end.
Proof. reflexivity. Qed.

Lemma syms_addr_ge : forall pls base k a d, In (k, (a, d)) (line_syms pls base) -> base <= a.
Proof.
  induction pls as [| pl r IH]; intros base k a d H; [destruct H |]. cbn [line_syms] in H. destruct H as [E | H].
  - injection E as _ <- _. lia.
  - specialize (IH _ _ _ _ H). lia.
Qed.

Lemma fold_skip_later addr : forall l acc, (forall k a d, In (k, (a, d)) l -> addr < a) -> fold_left (best_step addr) l acc = acc.
Proof.
  induction l as [| [k [a d]] r IH]; intros acc H; [reflexivity |]. cbn [fold_left best_step].
  specialize (H k a d (or_introl eq_refl)) as Ha. destruct (N.leb_spec a addr); [lia |]. rewrite Bool.andb_false_r.
  apply IH. intros k' a' d' Hin. apply (H k' a' d'). right. exact Hin.
Qed.

Lemma fold_keys_bound addr bound : forall l acc, (forall k v, In (k, v) l -> (k < bound)%Z) ->
  (match acc with Some k => (k < bound)%Z | None => True end) ->
  match fold_left (best_step addr) l acc with Some k => (k < bound)%Z | None => True end.
Proof.
  induction l as [| [k [a d]] r IH]; intros acc H Ha; [exact Ha |]. cbn [fold_left]. apply IH; [intros k' v' Hin; apply (H k' v'); right; exact Hin |].
  cbn [best_step]. pose proof (H k (a, d) (or_introl eq_refl)) as Hk.
  destruct ((0 <=? k)%Z && (a <=? addr)); [| exact Ha]. destruct acc as [k' |]; [destruct (k' <? k)%Z; [exact Hk | exact Ha] | exact Hk].
Qed.

Theorem address_belongs_to_line : forall before n ps after lo addr,
  ascending (before ++ (n, ps) :: after) lo -> n <= 65529 ->
  lenN (prog_ops before) <= addr < lenN (prog_ops before) + lenN (line_ops (n, ps)) ->
  line_number_for (line_syms (before ++ (n, ps) :: after) 0) addr = Some n.
Proof.
  intros before n ps after lo addr Ha Hn Haddr. rewrite line_number_for_fold, line_syms_app. cbn [line_syms fst]. rewrite fold_left_app. cbn [fold_left].
  rewrite N.add_0_l.
  destruct (ascending_app _ _ _ Ha) as (_ & _ & Hbefore & _).
  (* what the lines before leave: nothing, or a number below n *)
  pose proof (fold_keys_bound addr (Z.of_N n) (line_syms before 0) None) as Hb.
  assert (Hkeys : forall k v, In (k, v) (line_syms before 0) -> (k < Z.of_N n)%Z).
  { intros k v Hin. destruct (line_syms_keys before 0 k v Hin) as (pl & Hpl & ->). specialize (Hbefore pl (n, ps) Hpl (or_introl eq_refl)). cbn [fst] in Hbefore. lia. }
  specialize (Hb Hkeys I).
  (* line n itself qualifies and beats it *)
  set (acc0 := fold_left (best_step addr) (line_syms before 0) None) in *.
  assert (Estep : best_step addr acc0 (Z.of_N n, (lenN (prog_ops before), 0)) = Some (Z.of_N n)).
  { cbn [best_step]. destruct (Z.leb_spec 0 (Z.of_N n)); [| lia]. destruct (N.leb_spec (lenN (prog_ops before)) addr); [| lia]. cbn [andb].
    destruct acc0 as [k' |]; [| reflexivity]. destruct (Z.ltb_spec k' (Z.of_N n)); [reflexivity | lia]. }
  rewrite Estep.
  (* the lines behind start beyond the address *)
  rewrite fold_skip_later.
  - destruct (Z.leb_spec (Z.of_N n) 65529); [| lia]. rewrite N2Z.id. reflexivity.
  - intros k a d Hin. pose proof (syms_addr_ge _ _ _ _ _ Hin). lia.
Qed.

