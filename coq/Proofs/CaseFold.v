(* C16: the scanner for words (keywords and identifiers) does not depend on letter case. *)
From BL Require Import Base.Prelude Lang.Token Lang.Lex Proofs.LexSteps.
From Coq Require Import String.
Local Open Scope N_scope.

Definition same_letters (a b : str) : Prop := map to_upper a = map to_upper b.

Lemma bool_ext (a b : bool) : (a = true <-> b = true) -> a = b.
Proof. apply eq_true_iff_eq. Qed.

Lemma to_upper_cases c d : to_upper c = to_upper d ->
  c = d \/ (97 <= c <= 122 /\ d = c - 32) \/ (97 <= d <= 122 /\ c = d - 32).
Proof.
  unfold to_upper. destruct (is_lower c) eqn:Ec, (is_lower d) eqn:Ed; intros H.
  - apply lower_range in Ec, Ed. left. lia.
  - apply lower_range in Ec. right. left. split; [exact Ec | lia].
  - apply lower_range in Ed. right. right. split; [exact Ed | lia].
  - left. exact H.
Qed.

Lemma lower_class c : 97 <= c <= 122 ->
  is_alpha c = is_alpha (c - 32) /\ is_digit c = is_digit (c - 32) /\ is_suffix_chr c = is_suffix_chr (c - 32) /\ is_ws c = is_ws (c - 32).
Proof.
  intros Hc.
  assert (Ha : is_alpha c = true) by (unfold is_alpha; rewrite (proj2 (lower_range c) Hc); apply orb_true_r).
  assert (Ha' : is_alpha (c - 32) = true) by (unfold is_alpha; rewrite (proj2 (upper_range (c - 32))) by lia; reflexivity).
  assert (Hd1 : is_digit c = false) by (apply not_true_is_false; intros E; apply digit_range in E; lia).
  assert (Hd2 : is_digit (c - 32) = false) by (apply not_true_is_false; intros E; apply digit_range in E; lia).
  rewrite Ha, Ha', Hd1, Hd2. repeat split; try reflexivity.
  - unfold is_suffix_chr. repeat match goal with |- context [?a =? ?b] => destruct (N.eqb_spec a b); [lia |] end. reflexivity.
  - unfold is_ws. repeat match goal with |- context [?a =? ?b] => destruct (N.eqb_spec a b); [lia |] end. reflexivity.
Qed.

Lemma to_upper_class c d : to_upper c = to_upper d ->
  is_alpha c = is_alpha d /\ is_digit c = is_digit d /\ is_suffix_chr c = is_suffix_chr d /\ is_ws c = is_ws d.
Proof.
  intros H. destruct (to_upper_cases c d H) as [-> | [[Hc ->] | [Hd ->]]]; [repeat split; reflexivity | exact (lower_class c Hc) |].
  destruct (lower_class d Hd) as (Ea & Ed & Es & Ew). repeat split; symmetry; assumption.
Qed.

Lemma same_letters_cons c c' a b : to_upper c = to_upper c' -> same_letters a b -> same_letters (c :: a) (c' :: b).
Proof. unfold same_letters. intros H1 H2. cbn [map]. rewrite H1, H2. reflexivity. Qed.

Inductive same_view : str -> str -> Prop :=
| same_nil : same_view [] []
| same_cons c c' a b : to_upper c = to_upper c' -> same_letters a b -> same_view (c :: a) (c' :: b).

Lemma same_letters_view a b : same_letters a b -> same_view a b.
Proof.
  unfold same_letters. destruct a as [| c a], b as [| c' b]; cbn [map]; intros H; try discriminate; [constructor |].
  injection H as H1 H2. constructor; assumption.
Qed.

Lemma same_letters_ind (P : str -> str -> Prop) :
  P [] [] ->
  (forall c c' a b, to_upper c = to_upper c' -> same_letters a b -> P a b -> P (c :: a) (c' :: b)) ->
  forall a b, same_letters a b -> P a b.
Proof.
  intros Hnil Hcons. unfold same_letters. induction a as [| c a IH]; intros [| c' b] H; try discriminate H; [exact Hnil |].
  cbn [map] in H. injection H as Hc Hr. exact (Hcons c c' a b Hc Hr (IH b Hr)).
Qed.

(* how the sub-scanners' lemmas are used (CaseLex) *)
Lemma same_result {A} (x y : A * str) : fst x = fst y /\ same_letters (snd x) (snd y) ->
  exists rest', y = (fst x, rest') /\ same_letters (snd x) rest'.
Proof. destruct x as [t rest], y as [t' rest']. cbn [fst snd]. intros [-> H]. exists rest'. split; [reflexivity | exact H]. Qed.

Theorem alpha_loop_case : forall cs cs' s digit pend, same_letters cs cs' ->
  fst (alpha_loop cs s digit pend) = fst (alpha_loop cs' s digit pend)
  /\ same_letters (snd (alpha_loop cs s digit pend)) (snd (alpha_loop cs' s digit pend)).
Proof.
  intros cs cs' s digit pend H. revert s digit pend.
  induction H as [| c c' rest rest' Hc Hr IH] using same_letters_ind; intros s digit pend; [split; reflexivity |].
  cbn [alpha_loop]. rewrite <- Hc.
  repeat match goal with |- context [if ?b then _ else _] => destruct b; [cbn [fst snd]; split; [reflexivity | exact Hr] |] end.
  destruct (same_letters_view _ _ Hr) as [| pk pk' rest2 rest2' Hpk Hr2].
  - destruct (scan_alphabetic _ _ _). cbn. split; reflexivity.
  - destruct (to_upper_class pk pk' Hpk) as (Ea & Ed & Es & _). rewrite <- Ea, <- Ed, <- Es.
    destruct (is_alpha pk).
    + destruct (digit || is_digit (to_upper c))%bool; [cbn [fst snd]; split; [reflexivity | exact Hr] | apply IH].
    + destruct (is_digit pk || is_suffix_chr pk)%bool.
      * destruct (scan_alphabetic _ _ _) as [toks s2]. destruct s2; [cbn [fst snd]; split; [reflexivity | exact Hr] | apply IH].
      * destruct (scan_alphabetic _ _ _). cbn [fst snd]. split; [reflexivity | exact Hr].
Qed.

Corollary word_case_irrelevant : forall w w', same_letters w w' ->
  fst (alpha_loop w [] false []) = fst (alpha_loop w' [] false []).
Proof. intros w w' H. exact (proj1 (alpha_loop_case w w' [] false [] H)). Qed.

Example keywords_any_case :
  fst (alpha_loop (s2l "print"%string) [] false []) = [TWord WPrint] /\ fst (alpha_loop (s2l "PrInT"%string) [] false []) = [TWord WPrint]
  /\ fst (alpha_loop (s2l "gosub"%string) [] false []) = fst (alpha_loop (s2l "GOSUB"%string) [] false []).
Proof. vm_compute. repeat split; reflexivity. Qed.
