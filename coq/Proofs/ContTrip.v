(* For C13 -- the steps of the interrupt / CONT round trip at the API; the round trip itself is in Props/C13.v.
   What Program::link leaves behind (Linked, decided by linked_b); the direct line CONT compiled and linked on such a program
   (cont_line_compiles); the machine after enter("CONT") and after the CONT instruction (entered, resumed, cont_instruction);
   the calls that report an error and show the prompt (execs, error_report); CONT entered at the prompt
   (cont_at_prompt_resumes); a machine that meets the premises (trip_machine). *)
From BL Require Import Base.Prelude Lang.Token Lang.Ast Lang.Parse Mach.Val Mach.Compile Mach.Listing Mach.Runtime Proofs.RMFrame Proofs.Slicing
     Proofs.ExprCompile Proofs.FreshRun.
From Coq Require Import Lia.
Local Open Scope N_scope.

(* what Program::link leaves behind *)
Record Linked (p : program) : Prop := mkLinked {
  lk_unl : l_unlinked (pg_link p) = [];
  lk_wh : l_whiles (pg_link p) = [];
  lk_cur : l_cur (pg_link p) = 0%Z;
  lk_syms : filter (fun e => (0 <=? fst e)%Z) (l_syms (pg_link p)) = l_syms (pg_link p);
  lk_addr : forallb (fun e => fst (snd e) <=? pg_direct p) (l_syms (pg_link p)) = true;
  lk_dir : pg_direct p <> 0;
  lk_len : pg_direct p <= lenN (l_ops (pg_link p));
  lk_room : pg_direct p + 2 <= MAX_POOL;
  lk_data : lenN (l_data (pg_link p)) <= MAX_POOL
}.

(* the program after the direct line CONT has been compiled and linked *)
Definition cont_prog (p : program) : program :=
  let l := pg_link p in
  mkProg [] (pg_ind_errors p) (pg_direct p) None
         (mkLink 0 (firstnN (pg_direct p) (l_ops l) ++ [OpCont; OpEnd]) (l_data l) (l_data_pos l) (l_direct_set l)
                 (l_syms l) [] []).

Lemma firstnN_app_le : forall A (n : N) (a b : list A), n <= lenN a -> firstnN n (a ++ b) = firstnN n a.
Proof.
  intros A n a b H. unfold firstnN, lenN in *. rewrite firstn_app.
  replace (N.to_nat n - List.length a)%nat with 0%nat by lia. cbn [firstn]. apply app_nil_r.
Qed.

Lemma lenN_firstnN : forall A (n : N) (a : list A), n <= lenN a -> lenN (firstnN n a) = n.
Proof. intros A n a H. unfold firstnN, lenN in *. rewrite firstn_length. lia. Qed.

(* the second half of Program::link on a program of that shape: nothing is left to resolve *)
Lemma finish_linked q : l_unlinked (pg_link q) = [] -> l_whiles (pg_link q) = [] -> pg_direct q <> 0 ->
  finish_link q = mkProg (pg_errors q) (pg_ind_errors q) (pg_direct q) (pg_line q)
    (mkLink 0 (l_ops (pg_link q)) (l_data (pg_link q)) (l_data_pos (pg_link q)) (l_direct_set (pg_link q))
            (filter (fun e => (0 <=? fst e)%Z) (l_syms (pg_link q))) [] []).
Proof.
  intros Hu Hw Hd. apply N.eqb_neq in Hd. unfold finish_link, link_link. rewrite Hu, Hw, Hd. destruct (pg_errors q); reflexivity.
Qed.

(* the first half of a direct line: linking what is there and cutting the old direct code off; a final END that linking
   may have added, and the error if there was no room for it, go with the cut *)
Lemma relink_cut : forall p, Linked p ->
  open_direct (program_link p)
  = mkProg [] (pg_ind_errors p) (pg_direct p) None
      (mkLink 0 (firstnN (pg_direct p) (l_ops (pg_link p))) (l_data (pg_link p)) (l_data_pos (pg_link p))
              (l_direct_set (pg_link p)) (l_syms (pg_link p)) [] []).
Proof.
  intros p [Hu Hw Hc Hs Ha Hd Hl Hr Hda]. rewrite program_link_eq. unfold open_direct. destruct (last_is_end _ && _).
  - rewrite finish_linked by assumption.
    cbn [pg_direct pg_ind_errors pg_link set_ops l_ops l_cur l_data l_data_pos l_direct_set l_syms l_unlinked l_whiles].
    rewrite Hs. reflexivity.
  - unfold close_direct, l_push. cbn [fst snd].
    destruct (MAX_POOL <? _); rewrite finish_linked by assumption;
      cbn [prog_raw_error with_link pg_direct pg_ind_errors pg_link set_ops l_ops l_cur l_data l_data_pos l_direct_set l_syms l_unlinked l_whiles];
      rewrite Hs, firstnN_app_le by assumption; reflexivity.
Qed.

Lemma forallb_le_lt : forall (syms : list (Z * (N * N))) d n, forallb (fun e => fst (snd e) <=? d) syms = true -> d < n ->
  existsb (fun e => fst (snd e) =? n) syms = false.
Proof.
  induction syms as [| e r IH]; intros d n H Hn; [reflexivity |]. cbn [forallb existsb] in *.
  apply andb_prop in H. destruct H as [H1 H2]. rewrite (IH d n H2 Hn). apply N.leb_le in H1.
  destruct (N.eqb_spec (fst (snd e)) n); [lia | reflexivity].
Qed.

Lemma last_is_end_snoc : forall ops, last_is_end (ops ++ [OpEnd]) = true.
Proof. intros ops. unfold last_is_end. rewrite rev_unit. reflexivity. Qed.

Lemma cg_cont : forall c, cg_stmt (SCont c) = ((c, mkLink 0 [OpCont] [] 0 false [] [] []), []).
Proof. intros c. reflexivity. Qed.

Theorem cont_line_compiles : forall p c, Linked p -> program_link (codegen_line p None (Ok [SCont c])) = cont_prog p.
Proof.
  intros p c L. rewrite codegen_direct_eq, (relink_cut p L). destruct L as [Hu Hw Hc Hs Ha Hd Hl Hr Hda].
  set (base := firstnN (pg_direct p) (l_ops (pg_link p))).
  assert (Hb : lenN base = pg_direct p) by (apply lenN_firstnN; assumption).
  assert (H1 : (MAX_POOL <? lenN (base ++ [OpCont])) = false).
  { apply N.ltb_ge. rewrite lenN_app, Hb. unfold lenN. cbn [List.length]. lia. }
  assert (H2 : (MAX_POOL <? lenN (l_data (pg_link p))) = false) by (apply N.ltb_ge; assumption).
  assert (H3 : (MAX_POOL <? lenN ((base ++ [OpCont]) ++ [OpEnd])) = false).
  { apply N.ltb_ge. rewrite !lenN_app, Hb. unfold lenN. cbn [List.length]. lia. }
  unfold codegen_ast. cbn [map]. rewrite cg_cont. cbn [map fst snd flat_map app fold_left append_stmt_frags pg_link].
  unfold l_append. cbn [l_direct_set l_data l_ops l_cur l_syms l_unlinked l_whiles fold_left map app]. rewrite andb_false_r, H1.
  cbn [set_data l_data l_cur l_ops l_data_pos l_direct_set l_syms l_unlinked l_whiles]. rewrite app_nil_r, H2.
  unfold close_direct, l_push, set_data, set_ops.
  cbn [with_link pg_link l_ops l_data l_cur l_data_pos l_direct_set l_syms l_unlinked l_whiles fst snd Z.add].
  rewrite H3, program_link_eq. cbn [with_link pg_link l_ops l_syms].
  rewrite last_is_end_snoc, (forallb_le_lt _ (pg_direct p)); [| assumption | rewrite !lenN_app, Hb; unfold lenN; cbn [List.length]; lia].
  cbn [andb negb]. rewrite finish_linked by (reflexivity || exact Hd).
  cbn [with_link pg_link l_ops l_data l_data_pos l_direct_set l_syms pg_errors pg_ind_errors pg_direct pg_line]. rewrite Hs.
  unfold cont_prog. fold base. rewrite <- app_assoc. reflexivity.
Qed.

Definition cont_text : str := [67; 79; 78; 84].          (* "CONT" *)
Definition cont_line : line := (None, [TWord WCont]).

Lemma nthN_app_at : forall A (a b : list A) (x : A), nthN (a ++ x :: b) (lenN a) = Some x.
Proof.
  intros A a b x. unfold nthN, lenN. rewrite Nat2N.id. rewrite nth_error_app2 by lia.
  rewrite Nat.sub_diag. reflexivity.
Qed.

Section Trip.
Variable O : oracle.

(* the machine right after the line CONT was entered at the prompt of a clean, linked machine *)
Definition entered (r : rt) : rt :=
  let p := cont_prog (r_prog r) in
  set_state (set_listing (set_entry (set_tr (set_pc (set_prog r p) (pg_direct p)) None) (pg_direct p))
                         (mkListing (ls_lines (r_listing r)) (pg_ind_errors p) (pg_errors p))) StRunning.

Lemma enter_direct_cont : forall r, r_dirty r = false -> Linked (r_prog r) -> enter_direct r cont_line = entered r.
Proof.
  intros r Hd L. unfold enter_direct. rewrite Hd. cbn [snd cont_line].
  change (parse None [TWord WCont]) with (Ok [SCont (0, 4)] : res (list stmt)).
  rewrite (cont_line_compiles _ _ L). reflexivity.
Qed.

Lemma enter_cont : forall r, match r_state r with StInput | StInkey => False | _ => True end ->
  r_dirty r = false -> Linked (r_prog r) -> rt_enter O r cont_text = Ok (entered r, true).
Proof.
  intros r H Hd L. rewrite <- (enter_direct_cont r Hd L), enter_eq. destruct (r_state r); try contradiction; reflexivity.
Qed.

(* and the machine after the CONT instruction itself has run *)
Definition resumed (r : rt) : rt :=
  let e := entered r in
  set_pc (set_cont (set_state (set_pc e (r_pc e + 1)) (r_cont r)) StStopped) (r_cont_pc r).

Lemma fetch_cont : forall r, Linked (r_prog r) ->
  nthN (l_ops (pg_link (r_prog (entered r)))) (r_pc (entered r)) = Some OpCont.
Proof.
  intros r L. cbn. rewrite <- (lenN_firstnN _ (pg_direct (r_prog r)) (l_ops (pg_link (r_prog r)))) at 2 by apply L.
  apply nthN_app_at.
Qed.

(* a running program goes on within the same call, a waiting state (INPUT prompt, key wait, listing) hands control back
   to the caller at once *)
Theorem cont_instruction : forall r k h, Linked (r_prog r) -> r_tron r = false -> is_stopped (r_cont r) = false ->
  exec_loop O (S k) h (entered r)
  = if is_running (r_cont r) then exec_loop O k h (resumed r) else (resumed r, Ok EvRunning).
Proof.
  intros r k h L Ht Hns. rewrite (exec_loop_S_notron O) by exact Ht. rewrite one_op_eq, (fetch_cont r L). cbn [exec_op].
  destruct (cont_restores (set_pc (entered r) (r_pc (entered r) + 1)) (r_cont r) eq_refl Hns eq_refl) as [Hf Hs].
  destruct (do_cont (set_pc (entered r) (r_pc (entered r) + 1))) as [r2 x]. cbn [fst snd] in Hf, Hs. subst r2 x.
  destruct (is_running (r_cont r)); reflexivity.
Qed.

Fixpoint execs (r : rt) (ks : list N) : res (rt * list event) :=
  match ks with
  | [] => Ok (r, [])
  | k :: t => do x <- rt_execute O r k; do y <- execs (fst x) t; Ok (fst y, snd x :: snd y)
  end.

(* the machine at the prompt after the error report *)
Definition at_prompt (r1 : rt) : rt := set_entry (set_col (set_state r1 StStopped) 0) 0.

Lemma set_col_same : forall r, r_col r = 0 -> set_col r 0 = r.
Proof. intros r H. destruct r. cbn in *. subst. reflexivity. Qed.

Lemma error_report : forall rS e k2 k3 k4, r_state rS = StRuntimeError e -> r_entry rS <> 0 -> r_col rS = 0 ->
  execs rS [k2; k3; k4]
  = Ok (at_prompt rS, [EvErrors [e]; EvPrint (match r_prompt rS with [] => [] | p => p ++ [c_nl] end); EvStopped]).
Proof.
  intros rS e k2 k3 k4 Hs He Hcol.
  cbn [execs]. rewrite (exec_error O rS k2 e Hs), Hcol. cbn [N.ltb N.compare bind fst snd].
  rewrite exec_stopped, ready_prompt_col0 by (reflexivity || assumption). cbn [bind fst snd].
  rewrite exec_stopped by reflexivity. unfold at_prompt. rewrite <- (set_col_same rS Hcol) at 1. reflexivity.
Qed.

Lemma interrupt_in_program : forall r, r_pc r < r_entry r ->
  rt_interrupt r = set_cont_pc (set_cont (set_state r StInterrupt) (r_state r)) (r_pc r).
Proof.
  intros r H. unfold rt_interrupt. cbn [r_entry r_pc set_cont_pc set_cont set_state].
  destruct (N.leb_spec (r_entry r) (r_pc r)); [lia | reflexivity].
Qed.

(* any machine at the prompt whose continuation slot holds a running program: after an interrupt, STOP, END or an error *)
Theorem cont_at_prompt_resumes : forall rB k,
  match r_state rB with StInput | StInkey => False | _ => True end ->
  r_cont rB = StRunning -> r_dirty rB = false -> r_tron rB = false -> Linked (r_prog rB) ->
  rt_enter O rB cont_text = Ok (entered rB, true)
  /\ rt_execute O (entered rB) (N.succ k) = rt_execute O (resumed rB) k.
Proof.
  intros rB k Hst HcB HdB HtB HLB. split.
  - exact (enter_cont rB Hst HdB HLB).
  - rewrite exec_running by reflexivity. rewrite N2Nat.inj_succ.
    rewrite (cont_instruction rB _ _ HLB HtB) by (rewrite HcB; reflexivity). rewrite HcB. cbn [is_running].
    rewrite (exec_running O (resumed rB)); [reflexivity | unfold resumed; rewrite HcB; reflexivity | reflexivity].
Qed.

Lemma cont_prog_keeps_code : forall p, pg_direct p <= lenN (l_ops (pg_link p)) ->
  firstnN (pg_direct p) (l_ops (pg_link (cont_prog p))) = firstnN (pg_direct p) (l_ops (pg_link p)).
Proof.
  intros p H. unfold cont_prog. cbn [pg_link l_ops].
  rewrite firstnN_app_le by (rewrite lenN_firstnN by assumption; lia).
  unfold firstnN. rewrite firstn_firstn. rewrite Nat.min_id. reflexivity.
Qed.

End Trip.

(* for C13_program_link_shape (Props/C13.v: Program::link always leaves the shape); a boolean test decides the rest *)
Lemma filter_all {A} (f : A -> bool) l : forallb f l = true -> filter f l = l.
Proof.
  induction l as [| e r IH]; [reflexivity |]. cbn [forallb filter]. intros H. apply andb_prop in H. destruct H as [H1 H2].
  rewrite H1, (IH H2). reflexivity.
Qed.

Lemma all_filter {A} (f : A -> bool) l : forallb f (filter f l) = true.
Proof. induction l as [| e r IH]; [reflexivity |]. cbn [filter]. destruct (f e) eqn:E; [cbn [forallb]; rewrite E |]; exact IH. Qed.

Lemma all_zassoc_set {V} (f : Z * V -> bool) k v s : f (k, v) = true -> forallb f s = true -> forallb f (zassoc_set k v s) = true.
Proof.
  intros Hk. induction s as [| [k0 v0] r IH]; cbn [zassoc_set forallb]; [rewrite Hk; reflexivity |].
  intros H. apply andb_prop in H. destruct H as [H1 H2].
  destruct (Z.eqb k k0); cbn [forallb]; [rewrite Hk, H2 | rewrite H1, (IH H2)]; reflexivity.
Qed.

Definition linked_b (p : program) : bool :=
  let l := pg_link p in
  match l_unlinked l, l_whiles l with [], [] => true | _, _ => false end
  && (l_cur l =? 0)%Z
  && forallb (fun e => (0 <=? fst e)%Z) (l_syms l)
  && forallb (fun e => fst (snd e) <=? pg_direct p) (l_syms l)
  && negb (pg_direct p =? 0) && (pg_direct p <=? lenN (l_ops l)) && (pg_direct p + 2 <=? MAX_POOL) && (lenN (l_data l) <=? MAX_POOL).

Lemma linked_b_ok : forall p, linked_b p = true -> Linked p.
Proof.
  intros p H. unfold linked_b in H. repeat (apply andb_prop in H; destruct H as [H ?]).
  destruct (l_unlinked (pg_link p)) eqn:Eu; [| discriminate]. destruct (l_whiles (pg_link p)) eqn:Ew; [| discriminate].
  constructor; try assumption.
  - apply Z.eqb_eq. assumption.
  - apply filter_all. assumption.
  - apply N.eqb_neq. match goal with H0 : negb _ = true |- _ => apply negb_true_iff in H0; exact H0 end.
  - apply N.leb_le. assumption.
  - apply N.leb_le. assumption.
  - apply N.leb_le. assumption.
Qed.

(* The premises that the examples share, decided together: an example is then checked with one evaluation of its machine
   instead of one for each conjunct.  Q is what else the example has to say. *)
Definition in_program_b (a : N) (r : rt) : bool :=
  (a <? r_entry r) && negb (r_dirty r) && negb (r_tron r) && linked_b (r_prog r) && (r_entry r =? pg_direct (r_prog r)).

Lemma in_program_b_ok : forall a r (Q : Prop), in_program_b a r = true -> Q ->
  a < r_entry r /\ r_dirty r = false /\ r_tron r = false /\ Linked (r_prog r) /\ r_entry r = pg_direct (r_prog r) /\ Q.
Proof.
  intros a r Q H HQ. unfold in_program_b in H. rewrite !andb_true_iff, !negb_true_iff in H. destruct H as ((((Ha & Hd) & Ht) & HL) & He).
  split; [apply N.ltb_lt; exact Ha |]. split; [exact Hd |]. split; [exact Ht |].
  split; [apply linked_b_ok; exact HL |]. split; [apply N.eqb_eq; exact He | exact HQ].
Qed.

Lemma is_running_eq : forall s, is_running s = true -> s = StRunning.
Proof. intros s H. destruct s; (reflexivity || discriminate H). Qed.

(* non-vacuity: a program interrupted in the middle of a statement, from the public entry points only *)
From BL Require Import Drv.Driver.
Require Import String.

Definition ok_rt (x : res (rt * bool)) : rt := match x with Ok (r, _) => r | _ => rt_default end.
Definition ok_ex (x : res (rt * event)) : rt := match x with Ok (r, _) => r | _ => rt_default end.

Definition trip_machine : rt :=
  let O := dummy_oracle in
  let r0 := ok_ex (rt_execute O rt_default 5000) in
  let r1 := ok_rt (rt_enter O r0 (s2l "10 A=A+1:PRINT A;")) in
  let r2 := ok_rt (rt_enter O r1 (s2l "20 IF A<9 THEN 10")) in
  let r3 := ok_ex (rt_execute O r2 5000) in
  let r4 := ok_rt (rt_enter O r3 (s2l "RUN")) in
  ok_ex (rt_execute O (ok_ex (rt_execute O r4 9)) 2).      (* after the first PRINT, inside the comparison of line 20 *)

Example trip_premises :
  r_state trip_machine = StRunning /\ r_pc trip_machine < r_entry trip_machine /\ r_dirty trip_machine = false
  /\ r_tron trip_machine = false /\ Linked (r_prog trip_machine) /\ r_entry trip_machine = pg_direct (r_prog trip_machine)
  /\ r_stack trip_machine <> []%list /\ 0 < r_col trip_machine.
Proof.
  assert (H : is_running (r_state trip_machine) && in_program_b (r_pc trip_machine) trip_machine
              && match r_stack trip_machine with [] => false | _ => true end && (0 <? r_col trip_machine) = true)
    by (vm_compute; reflexivity).
  revert H. generalize trip_machine as r. intros r H. rewrite !andb_true_iff in H. destruct H as (((Hs & Hp) & Hst) & Hcol).
  split; [apply is_running_eq; exact Hs |]. apply in_program_b_ok; [exact Hp |].
  split; [intros E; rewrite E in Hst; discriminate Hst | apply N.ltb_lt; exact Hcol].
Qed.
