(* C07: comparison is lexicographic; HEX$ / OCT$ are read back by the interpreter's own radix reader. *)
From BL Require Import Base.Prelude Mach.Val Mach.Func.
From Coq Require Import ZifyBool ZifyN.
Local Open Scope N_scope.

Inductive lex_lt : str -> str -> Prop :=
| lex_nil : forall y b, lex_lt [] (y :: b)
| lex_head : forall x y a b, x < y -> lex_lt (x :: a) (y :: b)
| lex_tail : forall x a b, lex_lt a b -> lex_lt (x :: a) (x :: b).

Lemma digit_char radix d : d < radix -> radix <= 16 ->
  digit_in_radix radix (if d <? 10 then 48 + d else 55 + d) = Some d.
Proof.
  intros Hd Hr. unfold digit_in_radix, is_digit, is_lower, is_upper. destruct (N.ltb_spec d 10).
  - destruct (N.leb_spec 48 (48 + d)); [| lia]. destruct (N.leb_spec (48 + d) 57); [| lia]. cbn [andb].
    replace (48 + d - 48) with d by lia. destruct (N.ltb_spec d radix); [reflexivity | lia].
  - destruct (N.leb_spec 48 (55 + d)); [| lia]. destruct (N.leb_spec (55 + d) 57); [lia |]. cbn [andb].
    destruct (N.leb_spec 97 (55 + d)); [lia |]. cbn [andb].
    destruct (N.leb_spec 65 (55 + d)); [| lia]. destruct (N.leb_spec (55 + d) 90); [| lia]. cbn [andb].
    replace (55 + d - 55) with d by lia. destruct (N.ltb_spec d radix); [reflexivity | lia].
Qed.

Lemma radix_round : forall fuel radix n acc, 2 <= radix <= 16 -> n < radix ^ N.of_nat fuel -> n < 1000000 ->
  radix_digits radix (radix_fuel fuel radix n acc) 0 = radix_digits radix acc n.
Proof.
  induction fuel as [| f IH]; intros radix n acc Hr Hn Hm.
  - cbn in Hn. assert (n = 0) by lia. subst n. reflexivity.
  - cbn [radix_fuel]. rewrite Nat2N.inj_succ, N.pow_succ_r' in Hn.
    assert (Hd : n mod radix < radix) by (apply N.mod_lt; lia).
    assert (Hdiv : n = radix * (n / radix) + n mod radix) by (apply N.div_mod; lia).
    assert (Hq1 : n / radix < radix ^ N.of_nat f) by (apply N.div_lt_upper_bound; lia).
    assert (Hq2 : n / radix <= n) by (rewrite <- (N.div_1_r n) at 2; apply N.div_le_compat_l; lia).
    (* from here on the quotient and the last digit are two numbers with n = radix * q + d *)
    generalize dependent (n mod radix). generalize dependent (n / radix). intros q Hq1 Hq2 d Hd Hdiv.
    assert (Hstep : radix_digits radix ((if d <? 10 then 48 + d else 55 + d) :: acc) q = radix_digits radix acc n).
    { cbn [radix_digits]. rewrite (digit_char radix d Hd (proj2 Hr)). destruct (N.ltb_spec q 1000000); [f_equal; lia | lia]. }
    destruct (N.eqb_spec q 0) as [-> | Hq]; [exact Hstep |].
    rewrite (IH radix q _ Hr Hq1 ltac:(lia)). exact Hstep.
Qed.

Lemma u16_lt n : u16_of_i16 n < 65536.
Proof. unfold u16_of_i16. pose proof (Z.mod_pos_bound n 65536 eq_refl). lia. Qed.

(* sixteen digits are enough for a 16-bit value in any radix: 65536 = 2^16 <= radix^16 *)
Lemma radix_reads_back radix n : 2 <= radix <= 16 -> n < 65536 ->
  radix_digits radix (radix_fuel 16 radix n []) 0 = Some n.
Proof.
  intros Hr Hn. rewrite radix_round; [reflexivity | exact Hr | | lia].
  change (N.of_nat 16) with 16. apply N.lt_le_trans with (2 ^ 16); [exact Hn | apply N.pow_le_mono_l; lia].
Qed.

Lemma radix_fuel_nonempty : forall fuel radix n, radix_fuel (S fuel) radix n [] <> [].
Proof.
  intros fuel radix n. cbn [radix_fuel]. destruct (n / radix =? 0); [discriminate |].
  assert (G : forall f q acc, acc <> [] -> radix_fuel f radix q acc <> []).
  { induction f as [| f IH]; intros q acc Ha; cbn [radix_fuel]; [exact Ha |]. destruct (q / radix =? 0); [discriminate | apply IH; discriminate]. }
  apply G. discriminate.
Qed.

Lemma radix_fuel_head : forall fuel radix n acc c r, 2 <= radix <= 16 ->
  (forall a l, acc = a :: l -> exists d, d < radix /\ a = (if d <? 10 then 48 + d else 55 + d)) ->
  radix_fuel fuel radix n acc = c :: r -> exists d, d < radix /\ c = (if d <? 10 then 48 + d else 55 + d).
Proof.
  induction fuel as [| f IH]; intros radix n acc c r Hr Ha H; cbn [radix_fuel] in H; [exact (Ha c r H) |].
  set (d := n mod radix) in *. assert (Hd : d < radix) by (apply N.mod_lt; lia).
  destruct (n / radix =? 0); [injection H as <- _; exists d; split; [exact Hd | reflexivity] |].
  apply (IH radix _ _ c r Hr) in H; [exact H |]. intros a l E. injection E as <- _. exists d. split; [exact Hd | reflexivity].
Qed.

(* what HEX$ / OCT$ print for 0..32767 starts with a digit character, and i16::from_str_radix reads it as the number *)
Lemma i16_reads_back radix n : 2 <= radix <= 16 -> (0 <= n <= 32767)%Z ->
  exists c r, radix_fuel 16 radix (u16_of_i16 n) [] = c :: r
    /\ (exists d, d < radix /\ c = if d <? 10 then 48 + d else 55 + d)
    /\ i16_from_str_radix (c :: r) radix = Some n.
Proof.
  intros Hr Hn. destruct (radix_fuel 16 radix (u16_of_i16 n) []) as [| c r] eqn:Es; [destruct (radix_fuel_nonempty _ _ _ Es) |].
  destruct (radix_fuel_head 16 radix _ [] c r Hr ltac:(discriminate) Es) as [d [Hd Hc]].
  exists c, r. split; [reflexivity |]. split; [exists d; split; assumption |].
  unfold i16_from_str_radix.
  destruct (N.eqb_spec c 45); [destruct (N.ltb_spec d 10); lia |]. destruct (N.eqb_spec c 43); [destruct (N.ltb_spec d 10); lia |].
  rewrite <- Es, (radix_reads_back radix _ Hr (u16_lt n)).
  unfold u16_of_i16. rewrite Z.mod_small, Z2N.id by lia.
  unfold in_i16. destruct (Z.leb_spec (-32768) n), (Z.leb_spec n 32767); try lia. reflexivity.
Qed.
