(* C01: control flow, part 4 -- from the parsed program to the run of the VM, and a program that meets every premise. *)
From BL Require Import Base.Prelude Base.Floats Mach.Val Mach.Ops Mach.Func Mach.Var
     Lang.Token Lang.Lex Lang.Ast Lang.Parse Mach.Compile Mach.Listing Mach.Runtime Spec.Sem
     Proofs.ExprCompile Proofs.Slicing Proofs.Reloc Proofs.Flow Proofs.Flow2 Proofs.Flow3 Proofs.FloatToInt.
From Coq Require Import Lia String.
Local Open Scope N_scope.

(* Parse.lnum_expr writes the target n of a branch as the Single f32_of_Z n.  For every line number there is (0..65529)
   the compiler's reading of that literal (TryFrom<Val> for LineNumber) and the reference reading (truncation) both
   give n back: Proofs/FloatToInt.v, from Flocq's specification of binary32. *)
Theorem line_literal_ok : forall n, n <= 65529 ->
  target_is (f32_of_Z (Z.of_N n)) n /\ Z.to_N (f32_to_Z (f32_of_Z (Z.of_N n))) = n.
Proof. intros n Hn. unfold target_is. exact (line_literal_all n Hn). Qed.

Section EndToEnd.
Variable O : oracle.

(* Compile the parsed lines, link, start at the first line with empty variables and the cursor at the left margin: however
   the reference semantics says the run goes -- texts printed, then END reached with variable store V, or error c -- the VM,
   given enough instructions, prints the same texts in the same order and then stops with the same variable store, or
   reports the same error. *)
Theorem compiled_program_follows_semantics : forall srcl pls dp lo n ss rest inputs fuel r,
  Forall2 lmatch srcl pls -> ascending pls lo -> last_is_end (prog_ops pls) = true -> last_nonempty pls ->
  r_slen r + lenN (prog_ops pls) <= MAX_POOL ->
  srcl = (n, ss) :: rest ->
  r_prog r = program_link (compile_asts srcl dp) -> r_pc r = 0 -> r_vars r = vars_empty -> r_tron r = false -> r_col r = 0 ->
  final O (sem_start false inputs) (run O srcl fuel (tag_line n ss, n) (sem_start false inputs)) r.
Proof.
  intros srcl pls dp lo n ss rest inputs fuel r Hm Ha Hend Hne Hfit Es Hprog Hpc Hv Ht Hc.
  assert (Hsz : lenN (l_ops (layout pls dp)) <= MAX_POOL) by (rewrite layout_ops; lia).
  destruct (compile_is_layout srcl pls dp (lmatch_flayout srcl pls Hm) Hsz) as (HL & _ & Hd & _).
  destruct (link_layout (compile_asts srcl dp) pls dp lo HL Hd Ha Hend Hne) as (Hops & _).
  apply (vm_follows_sem O srcl pls lo (r_slen r) Hm Ha Hend Hne Hfit).
  apply (start_related srcl pls lo (r_slen r) Hm Ha Hend Hne Hfit n ss rest inputs r Es Hpc Hv Ht eq_refl Hc).
  intros a op Hop. rewrite Hprog, Hops. exact Hop.
Qed.

End EndToEnd.

Definition parse_src (s : string) : option (N * list stmt) :=
  match lex (s2l s) with
  | Ok (Some n, toks) => match parse (Some n) toks with Ok ss => Some (n, ss) | _ => None end
  | _ => None
  end.

Definition demo_text : list string := ["10 A=2"; "20 ON A GOTO 10,40"; "30 GOTO 10"; "40 PRINT A;""X"""; "50 END"]%string.
Definition demo_items : list expr := [EUnary (6, 7) (IPlain [65]); EStr (8, 11) [88]; EStr (11, 11) [10]].
Definition demo_src : program_t :=
  [(10, [SLet (0, 1) (VUnary (0, 1) (IPlain [65])) (EInt (2, 3) 2)]);
   (20, [SOnGoto (0, 2) (EUnary (3, 4) (IPlain [65])) [ESng (10, 12) (f32_of_Z 10); ESng (13, 15) (f32_of_Z 40)]]);
   (30, [SGoto (0, 4) (ESng (5, 7) (f32_of_Z 10))]);
   (40, [SPrint (0, 5) demo_items]);
   (50, [SEnd (0, 3)])].
Definition demo_targets : list tgt := [((10, 12), f32_of_Z 10, 10); ((13, 15), f32_of_Z 40, 40)].
Definition demo_pieces : list pline :=
  [(10, [mkPiece (let_code (IPlain [65]) (EInt (2, 3) 2)) [] 0]);
   (20, [mkPiece (on_code (EUnary (3, 4) (IPlain [65])) demo_targets) (jump_refs (2 + lenN (postfix (EUnary (3, 4) (IPlain [65])))) demo_targets) (-1)]);
   (30, [mkPiece [OpJump 0] [(0, ((5, 7), Z.of_N 10))] 0]);
   (40, [mkPiece (print_code demo_items) [] 0]);
   (50, [mkPiece [OpEnd] [] 0])].

Example demo_is_parsed : map parse_src demo_text = map Some demo_src.
Proof. vm_compute. reflexivity. Qed.

Example demo_meets_premises :
  Forall2 lmatch demo_src demo_pieces /\ ascending demo_pieces 0 /\ last_is_end (prog_ops demo_pieces) = true
  /\ last_nonempty demo_pieces /\ 0 + lenN (prog_ops demo_pieces) <= MAX_POOL.
Proof.
  pose proof (line_literal_ok 10 ltac:(lia)) as [T10 S10]. pose proof (line_literal_ok 40 ltac:(lia)) as [T40 S40].
  change (Z.of_N 10) with 10%Z in *. change (Z.of_N 40) with 40%Z in *.
  split; [| split; [| split; [| split]]].
  - assert (one : forall n s p, gstmt s p -> lmatch (n, [s]) (n, [p])).
    { intros n s p H. split; [reflexivity |]. cbn [snd]. constructor; [exact H | constructor]. }
    unfold demo_src, demo_pieces. constructor; [apply one | constructor; [apply one | constructor; [apply one | constructor; [apply one | constructor; [apply one | constructor]]]]].
    + apply gs_let; [reflexivity | reflexivity | cbn; lia].
    + apply (gs_on (0, 2) (EUnary (3, 4) (IPlain [65])) demo_targets); [reflexivity | cbn; lia | | | vm_compute; discriminate].
      * repeat constructor; assumption.
      * repeat constructor; assumption.
    + apply (gs_goto (0, 4) (5, 7) (f32_of_Z 10) 10); assumption.
    + apply gs_print; [discriminate | reflexivity |]. repeat (apply Forall_cons; [cbn; lia |]). apply Forall_nil.
    + apply gs_end.
  - cbn. lia.
  - reflexivity.
  - cbn. discriminate.
  - vm_compute. discriminate.
Qed.

(* and the reference semantics runs it to END with A = 2 (the ON takes the second branch), printing " 2 ", "X" and a newline *)
Example demo_runs : forall O, exists st,
  run O demo_src 10 (tag_line 10 [SLet (0, 1) (VUnary (0, 1) (IPlain [65])) (EInt (2, 3) 2)], 10) (sem_start false []) = (st, HEnd)
  /\ s_out st = [SePrint [10]; SePrint [88]; SePrint [32; 50; 32]].
Proof. intros O. eexists. vm_compute. split; reflexivity. Qed.

Lemma map_SePrint_inj : forall a b : list str, map SePrint a = map SePrint b -> a = b.
Proof.
  induction a as [| x a IH]; intros [| y b] H; try discriminate; [reflexivity |]. cbn [map] in H. injection H as -> H. f_equal. exact (IH b H).
Qed.

(* so the theorem says something about it: the VM, started on the compiled and linked demo program, prints the same three
   texts in that order and stops at END *)
Example demo_vm_prints : forall O r dp,
  r_prog r = program_link (compile_asts demo_src dp) -> r_pc r = 0 -> r_vars r = vars_empty -> r_tron r = false -> r_slen r = 0 -> r_col r = 0 ->
  exists r1 m r', vm_steps O r [[32; 50; 32]; [88]; [10]] r1 /\ exec_loop_x O m false r1 = (r', Ok (Some EvStopped)).
Proof.
  intros O r dp Hprog Hpc Hv Ht Hs Hc. destruct demo_meets_premises as (Hm & Ha & Hend & Hne & Hfit). rewrite <- Hs in Hfit.
  pose proof (compiled_program_follows_semantics O demo_src demo_pieces dp 0 _ _ _ [] 10 r Hm Ha Hend Hne Hfit eq_refl Hprog Hpc Hv Ht Hc) as H.
  destruct (demo_runs O) as [st [Hst Hout]]. rewrite Hst in H. destruct H as (outs & r1 & m & r' & Hsteps & Hpr & Hstop & _).
  unfold printed in Hpr. rewrite Hout in Hpr. cbn [sem_start s_out] in Hpr. rewrite app_nil_r in Hpr.
  assert (Eo : outs = [[32; 50; 32]; [88]; [10]]).
  { apply map_SePrint_inj. apply (f_equal (@rev sevent)) in Hpr. rewrite rev_involutive in Hpr. symmetry. exact Hpr. }
  subst outs. exists r1, m, r'. split; assumption.
Qed.
