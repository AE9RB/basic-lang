(* For C04 (what was compiled before does not matter; the theorems are in Props/C04.v): every step of the compiler carries the
   DATA pointer of the link object along untouched (the _dp lemmas, up to codegen_line_dp and program_link_dp), and
   program_clear lets nothing else of the old program through (program_clear_any).  Also here, and used by Proofs/ContTrip.v as
   well: the direct line and Program::link cut into open_direct / close_direct / finish_link (codegen_direct_eq,
   program_link_eq).  At the end, the machines of C04_fresh_run_applies. *)
From BL Require Import Base.Prelude Base.Floats Mach.Val Mach.Ops Mach.Func Mach.Var
     Lang.Token Lang.Lex Lang.Ast Lang.Parse Mach.Compile Mach.Listing Mach.Runtime Proofs.Slicing Proofs.ExprCompile Proofs.Swap Proofs.Reloc.
From Coq Require Import Lia.
Local Open Scope N_scope.

(* the DATA pointer lives in the link object; everything the compiler does carries it along untouched *)
Definition with_dp (l : link) (d : N) : link :=
  mkLink (l_cur l) (l_ops l) (l_data l) d (l_direct_set l) (l_syms l) (l_unlinked l) (l_whiles l).
Definition with_pdp (p : program) (d : N) : program := with_link p (with_dp (pg_link p) d).

Lemma push_symbol_dp s l d : l_push_symbol s (with_dp l d) = (with_dp (fst (l_push_symbol s l)) d, snd (l_push_symbol s l)).
Proof. reflexivity. Qed.
Lemma push_dp op l d : l_push op (with_dp l d) = (with_dp (fst (l_push op l)) d, snd (l_push op l)).
Proof. reflexivity. Qed.
Lemma append_dp f l d : l_append f (with_dp l d) = (with_dp (fst (l_append f l)) d, snd (l_append f l)).
Proof.
  rewrite !l_append_eq. cbn [with_dp l_direct_set l_ops l_data].
  destruct (l_direct_set l && _); [reflexivity |].
  destruct (MAX_POOL <? lenN (l_ops l ++ l_ops f)); reflexivity.
Qed.

Lemma link_link_dp l d : link_link (with_dp l d) = (with_dp (fst (link_link l)) d, snd (link_link l)).
Proof.
  unfold link_link. cbn [with_dp l_whiles l_syms l_unlinked l_ops l_data l_data_pos l_direct_set].
  destruct (link_whiles_loop (l_whiles l) [] (l_syms l) (l_unlinked l) []) as [unl werrs].
  match goal with |- context [fold_left ?f unl ?a] => destruct (fold_left f unl a) as [ops errs] end. reflexivity.
Qed.

Lemma pdp_link p d : pg_link (with_pdp p d) = with_dp (pg_link p) d. Proof. reflexivity. Qed.

Lemma prog_error_dp p e d : prog_error (with_pdp p d) e = with_pdp (prog_error p e) d. Proof. reflexivity. Qed.
Lemma prog_raw_error_dp p e d : prog_raw_error (with_pdp p d) e = with_pdp (prog_raw_error p e) d. Proof. reflexivity. Qed.

Lemma fold_prog_error_dp : forall errs p d, fold_left prog_error errs (with_pdp p d) = with_pdp (fold_left prog_error errs p) d.
Proof. induction errs as [| e r IH]; intros p d; cbn [fold_left]; [reflexivity |]. rewrite prog_error_dp. apply IH. Qed.

Lemma append_frags_dp : forall fs p d, append_stmt_frags (with_pdp p d) fs = with_pdp (append_stmt_frags p fs) d.
Proof.
  induction fs as [| f r IH]; intros p d; cbn [append_stmt_frags]; [reflexivity |]. rewrite pdp_link, append_dp.
  destruct (l_append (snd f) (pg_link p)) as [l' [u | e | |]]; cbn [fst snd]; try reflexivity.
  change (with_link (with_pdp p d) (with_dp l' d)) with (with_pdp (with_link p l') d). apply IH.
Qed.

Lemma codegen_ast_dp p ast d : codegen_ast (with_pdp p d) ast = with_pdp (codegen_ast p ast) d.
Proof. unfold codegen_ast. rewrite fold_prog_error_dp. apply append_frags_dp. Qed.

(* the direct line is compiled between open_direct (the old direct code is cut off) and close_direct (the final END);
   linking is close_direct, unless the code ends in an END already, followed by finish_link *)
Definition close_direct (p3 : program) : program :=
  match l_push OpEnd (pg_link p3) with
  | (l', Ok _) => with_link p3 l'
  | (l', Err e) => prog_raw_error (with_link p3 l') e
  | (l', _) => with_link p3 l'
  end.
Definition open_direct (p0 : program) : program :=
  mkProg [] (pg_ind_errors p0) (pg_direct p0) None (set_ops (pg_link p0) (firstnN (pg_direct p0) (l_ops (pg_link p0)))).

Definition finish_link (p1 : program) : program :=
  let '(l2, lerrs) := link_link (pg_link p1) in
  let errs := match pg_errors p1 with [] => lerrs | _ => pg_errors p1 end in
  if pg_direct p1 =? 0 then
    mkProg [] errs (lenN (l_ops l2)) (pg_line p1)
      (mkLink (l_cur l2) (l_ops l2) (l_data l2) (l_data_pos l2) true
         (zassoc_set 65530 (lenN (l_ops l2), lenN (l_data l2)) (l_syms l2)) (l_unlinked l2) (l_whiles l2))
  else mkProg errs (pg_ind_errors p1) (pg_direct p1) (pg_line p1) l2.

Lemma program_link_eq p : program_link p =
  finish_link (if last_is_end (l_ops (pg_link p))
                  && negb (existsb (fun e => fst (snd e) =? lenN (l_ops (pg_link p))) (l_syms (pg_link p)))
               then p else close_direct p).
Proof. reflexivity. Qed.

Lemma close_direct_dp p d : close_direct (with_pdp p d) = with_pdp (close_direct p) d.
Proof. unfold close_direct. rewrite pdp_link, push_dp. destruct (l_push OpEnd (pg_link p)) as [l' [u | e | |]]; reflexivity. Qed.
Lemma open_direct_dp p d : open_direct (with_pdp p d) = with_pdp (open_direct p) d.
Proof. reflexivity. Qed.

Lemma finish_link_dp q d : finish_link (with_pdp q d) = with_pdp (finish_link q) d.
Proof.
  unfold finish_link. rewrite pdp_link, link_link_dp. destruct (link_link (pg_link q)) as [l2 lerrs].
  cbn [fst snd with_pdp with_link pg_errors pg_direct pg_line pg_ind_errors]. destruct (pg_direct q =? 0); reflexivity.
Qed.

Lemma program_link_dp p d : program_link (with_pdp p d) = with_pdp (program_link p) d.
Proof.
  rewrite !program_link_eq, pdp_link. cbn [with_dp l_ops l_syms].
  destruct (last_is_end (l_ops (pg_link p)) && negb (existsb _ (l_syms (pg_link p)))).
  - apply finish_link_dp.
  - rewrite close_direct_dp. apply finish_link_dp.
Qed.

Lemma codegen_direct_eq p ast : codegen_line p None ast =
  match ast with
  | Ok stmts => close_direct (codegen_ast (open_direct (program_link p)) stmts)
  | Err e => prog_raw_error (open_direct (program_link p)) e
  | _ => open_direct (program_link p)
  end.
Proof. unfold codegen_line. generalize (program_link p). intros p0. destruct ast; reflexivity. Qed.

Lemma codegen_line_dp p num ast d : codegen_line (with_pdp p d) num ast = with_pdp (codegen_line p num ast) d.
Proof.
  destruct num as [n |].
  - unfold codegen_line.
    cbn [with_pdp with_link pg_errors pg_ind_errors pg_direct pg_link l_push_symbol with_dp l_cur l_ops l_data l_data_pos l_direct_set l_syms l_unlinked l_whiles].
    destruct ast as [stmts | e | |]; try reflexivity.
    (* the program the line number was entered in is, by computation, the one on the right with the pointer set *)
    lazymatch goal with |- _ = with_pdp (codegen_ast ?q _) _ => exact (codegen_ast_dp q stmts d) end.
  - rewrite !codegen_direct_eq, program_link_dp, open_direct_dp. destruct ast as [stmts | e | |]; try reflexivity.
    rewrite codegen_ast_dp. apply close_direct_dp.
Qed.

(* compiling the stored lines: the program compiled before enters only through its DATA pointer (and its pending
   WHILE/WEND records, which are empty after every link) *)
Lemma program_clear_any p p' : l_whiles (pg_link p) = l_whiles (pg_link p') ->
  program_clear p' = with_pdp (program_clear p) (l_data_pos (pg_link p')).
Proof. intros H. unfold program_clear, with_pdp, with_link, with_dp. cbn. rewrite H. reflexivity. Qed.

From Coq Require Import String.
Definition stored : listing := mkListing [(10, match lex (s2l "PRINT 1") with Ok (_, t) => t | _ => [] end)] [] [].
Definition edited_fresh : rt := set_dirty (set_listing rt_default stored) true.
Definition edited_used : rt :=
  set_cont (set_fns (set_vars (set_stack_len edited_fresh [VInt 3; VRet 7] 2) (fst (match var_store vars_empty [65] (VInt 5) with Ok v => (v, tt) | _ => (vars_empty, tt) end)))
                    [([70; 78; 65], (1, 9))]) StRunning.
Definition run_line : line := match line_new (s2l "RUN") with Ok l => l | _ => (None, []) end.

Example fresh_run_premises :
  r_dirty edited_fresh = true /\ r_dirty edited_used = true /\ r_listing edited_fresh = r_listing edited_used
  /\ edited_fresh <> edited_used
  /\ nthN (l_ops (pg_link (r_prog (enter_direct edited_fresh run_line)))) (r_pc (enter_direct edited_fresh run_line)) = Some OpClear
  /\ prog_line_for (enter_direct edited_fresh run_line) (r_pc (enter_direct edited_fresh run_line)) = None.
Proof. vm_compute. repeat split; try reflexivity. discriminate. Qed.
