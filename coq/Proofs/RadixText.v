(* C05: & constants.  A hexadecimal or octal constant is listed as the text the scanner reads it from: &H and the digits,
   & and the digits.  Scanning that text again -- in front of anything that is not another digit -- gives the same token. *)
From BL Require Import Base.Prelude Lang.Token Lang.Lex Proofs.LexSteps.
Local Open Scope N_scope.

Definition oct_digit (c : N) : bool := (48 <=? c) && (c <=? 55).
Definition hex_digit (c : N) : bool := oct_digit c || ((56 <=? c) && (c <=? 57)) || ((65 <=? c) && (c <=? 70)).
Definition radix_digit (hex : bool) (c : N) : bool := if hex then hex_digit c else oct_digit c.

Definition stops (hex : bool) (rest : str) : Prop :=
  match rest with [] => True | c0 :: _ => radix_digit hex (to_upper c0) = false end.
(* the scanner hands the character it stopped at back in upper case *)
Definition handed_back (rest : str) : str := match rest with [] => [] | c0 :: r => to_upper c0 :: r end.

Lemma digit_upper hex c : radix_digit hex c = true -> to_upper c = c.
Proof.
  intros H. unfold to_upper. destruct (is_lower c) eqn:E; [| reflexivity]. exfalso. apply lower_range in E.
  unfold radix_digit, hex_digit, oct_digit in H.
  destruct hex; rewrite ?Bool.orb_true_iff, !Bool.andb_true_iff, !N.leb_le in H; lia.
Qed.

Lemma radix_test hex c :
  (((48 <=? c) && (c <=? 55)) || (hex && (((56 <=? c) && (c <=? 57)) || ((65 <=? c) && (c <=? 70))))) = radix_digit hex c.
Proof. unfold radix_digit, hex_digit, oct_digit. destruct hex; cbn [andb]; [rewrite Bool.orb_assoc; reflexivity | rewrite Bool.orb_false_r; reflexivity]. Qed.

Lemma radix_loop_reads hex : forall s rest acc, all_b (radix_digit hex) s = true -> stops hex rest ->
  radix_loop (s ++ rest) hex acc = (rev acc ++ s, handed_back rest).
Proof.
  induction s as [| c s IH]; intros rest acc Hs Hr.
  - cbn [app]. rewrite app_nil_r. destruct rest as [| c0 r]; [reflexivity |]. cbn [radix_loop handed_back stops] in *.
    rewrite radix_test, Hr. reflexivity.
  - cbn [all_b] in Hs. apply andb_prop in Hs. destruct Hs as [Hc Hs]. cbn [app radix_loop].
    rewrite (digit_upper hex c Hc), radix_test, Hc. rewrite (IH rest (c :: acc) Hs Hr). cbn [rev]. rewrite <- app_assoc. reflexivity.
Qed.

Example radix_demo :
  all_b hex_digit [49; 70] = true /\ stops true [32; 43] /\ all_b oct_digit [49; 55] = true /\ stops false [56] /\ stops false [58]
  /\ lex_radix (72 :: [49; 70] ++ [58]) = (TLit (LHex [49; 70]), [58]) /\ lex_radix ([49; 55] ++ [43]) = (TLit (LOct [49; 55]), [43]).
Proof. repeat split; reflexivity. Qed.
