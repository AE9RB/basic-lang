(* C01: control flow, part 2 -- the explicit shape of the layout, and what linking does to it. *)
From BL Require Import Base.Prelude Base.Floats Mach.Val Mach.Ops Mach.Func Mach.Var
     Lang.Token Lang.Lex Lang.Ast Lang.Parse Mach.Compile Mach.Listing Mach.Runtime Spec.Sem
     Proofs.ExprCompile Proofs.Reloc Proofs.Flow.
From Coq Require Import Lia.
Local Open Scope N_scope.

Definition pline := (N * list piece)%type.
Definition line_ops (pl : pline) : list opcode := flat_map pc_ops (snd pl).
Definition prog_ops (pls : list pline) : list opcode := flat_map line_ops pls.

Fixpoint piece_refs (ps : list piece) (base : N) : list (N * (col * Z)) :=
  match ps with [] => [] | p :: r => shift base (pc_refs p) ++ piece_refs r (base + lenN (pc_ops p)) end.
Fixpoint line_refs (pls : list pline) (base : N) : list (N * (col * Z)) :=
  match pls with [] => [] | pl :: r => piece_refs (snd pl) base ++ line_refs r (base + lenN (line_ops pl)) end.
Fixpoint line_syms (pls : list pline) (base : N) : list (Z * (N * N)) :=
  match pls with [] => [] | pl :: r => (Z.of_N (fst pl), (base, 0)) :: line_syms r (base + lenN (line_ops pl)) end.

Fixpoint ascending (pls : list pline) (lo : N) : Prop :=
  match pls with [] => True | pl :: r => lo <= fst pl /\ ascending r (fst pl + 1) end.

Lemma pieces_explicit : forall ps cur ops syms unl dp, exists cur',
  fold_left add_piece ps (plink cur ops syms unl dp)
  = plink cur' (ops ++ flat_map pc_ops ps) syms (unl ++ piece_refs ps (lenN ops)) dp.
Proof.
  induction ps as [| p r IH]; intros cur ops syms unl dp; cbn [fold_left flat_map piece_refs].
  - exists cur. rewrite !app_nil_r. reflexivity.
  - destruct (IH (cur + pc_cur p)%Z (ops ++ pc_ops p) syms (unl ++ shift (lenN ops) (pc_refs p)) dp) as [cur' E]. exists cur'.
    etransitivity; [exact E |]. rewrite lenN_app, <- !app_assoc. reflexivity.
Qed.

(* the line symbols are the explicit ones when the line numbers ascend: only then does each new symbol go to the end *)
Lemma lines_explicit : forall pls cur ops syms unl dp, exists cur' syms',
  fold_left add_line pls (plink cur ops syms unl dp)
  = plink cur' (ops ++ prog_ops pls) syms' (unl ++ line_refs pls (lenN ops)) dp /\
  forall lo, ascending pls lo -> (forall k v, In (k, v) syms -> (k < Z.of_N lo)%Z) -> syms' = syms ++ line_syms pls (lenN ops).
Proof.
  induction pls as [| pl r IH]; intros cur ops syms unl dp; cbn [fold_left prog_ops flat_map line_syms line_refs].
  - exists cur, syms. rewrite !app_nil_r. split; [reflexivity | intros; reflexivity].
  - set (syms1 := zassoc_set (Z.of_N (fst pl)) (lenN ops, 0) syms).
    change (add_line (plink cur ops syms unl dp) pl) with (fold_left add_piece (snd pl) (plink cur ops syms1 unl dp)).
    destruct (pieces_explicit (snd pl) cur ops syms1 unl dp) as [cur1 E1]. rewrite E1. fold (line_ops pl).
    destruct (IH cur1 (ops ++ line_ops pl) syms1 (unl ++ piece_refs (snd pl) (lenN ops)) dp) as (cur' & syms' & E & Hs).
    exists cur', syms'. split; [rewrite E, lenN_app, <- !app_assoc; reflexivity |].
    intros lo [Hlo Ha] Hk.
    assert (Ez : syms1 = syms ++ [(Z.of_N (fst pl), (lenN ops, 0))])
      by (apply get_none_fresh, zassoc_get_none; intros k' v' Hin E'; specialize (Hk k' v' Hin); lia).
    rewrite (Hs (fst pl + 1) Ha), Ez, lenN_app, <- app_assoc; [reflexivity |].
    rewrite Ez. intros k v Hin. apply in_app_or in Hin. destruct Hin as [Hin | [E' | []]]; [specialize (Hk k v Hin); lia | injection E' as <- _; lia].
Qed.

Theorem layout_ops pls dp : l_ops (layout pls dp) = prog_ops pls.
Proof. unfold layout. rewrite lines_ops. reflexivity. Qed.

Theorem layout_refs pls dp : l_unlinked (layout pls dp) = line_refs pls 0.
Proof. unfold layout. destruct (lines_explicit pls 0 [] [] [] dp) as (cur' & syms' & E & _). rewrite E. reflexivity. Qed.

Lemma layout_explicit pls dp lo : ascending pls lo ->
  layout pls dp = plink (l_cur (layout pls dp)) (prog_ops pls) (line_syms pls 0) (line_refs pls 0) dp.
Proof.
  intros Ha. unfold layout. destruct (lines_explicit pls 0 [] [] [] dp) as (cur' & syms' & E & Hs).
  rewrite E, (Hs lo Ha ltac:(intros k v [])). reflexivity.
Qed.

Theorem layout_syms pls dp lo : ascending pls lo -> l_syms (layout pls dp) = line_syms pls 0.
Proof. intros Ha. rewrite (layout_explicit pls dp lo Ha). reflexivity. Qed.

Lemma prog_ops_app a b : prog_ops (a ++ b) = prog_ops a ++ prog_ops b.
Proof. unfold prog_ops. apply flat_map_app. Qed.

Lemma line_syms_app : forall a b base, line_syms (a ++ b) base = line_syms a base ++ line_syms b (base + lenN (prog_ops a)).
Proof.
  induction a as [| pl r IH]; intros b base; cbn [app line_syms prog_ops flat_map]; [unfold lenN; cbn; rewrite N.add_0_r; reflexivity |].
  rewrite IH. fold (prog_ops r). rewrite lenN_app. f_equal. f_equal. f_equal. lia.
Qed.

Lemma line_refs_app : forall a b base, line_refs (a ++ b) base = line_refs a base ++ line_refs b (base + lenN (prog_ops a)).
Proof.
  induction a as [| pl r IH]; intros b base; cbn [app line_refs prog_ops flat_map]; [unfold lenN; cbn; rewrite N.add_0_r; reflexivity |].
  rewrite IH. fold (prog_ops r). rewrite lenN_app, <- app_assoc. f_equal. f_equal. f_equal. lia.
Qed.

Lemma piece_refs_app : forall a b base, piece_refs (a ++ b) base = piece_refs a base ++ piece_refs b (base + lenN (flat_map pc_ops a)).
Proof.
  induction a as [| p r IH]; intros b base; cbn [app piece_refs flat_map]; [unfold lenN; cbn; rewrite N.add_0_r; reflexivity |].
  rewrite IH, lenN_app, <- app_assoc. f_equal. f_equal. f_equal. lia.
Qed.

Lemma ascending_ge : forall l lo, ascending l lo -> forall pl, In pl l -> lo <= fst pl.
Proof.
  induction l as [| x r IH]; intros lo H pl Hin; [destruct Hin |]. destruct H as [Hlo H].
  destruct Hin as [<- | Hin]; [exact Hlo | specialize (IH _ H pl Hin); lia].
Qed.

Lemma ascending_app : forall a b lo, ascending (a ++ b) lo -> ascending a lo /\ (forall pl, In pl a -> lo <= fst pl) /\
  (forall pl pl', In pl a -> In pl' b -> fst pl < fst pl') /\ exists lo', ascending b lo' /\ lo <= lo'.
Proof.
  induction a as [| x r IH]; intros b lo H; cbn [app ascending] in *.
  - split; [exact I |]. split; [intros pl []|]. split; [intros pl pl' [] |]. exists lo. split; [exact H | lia].
  - destruct H as [Hlo H]. destruct (IH b (fst x + 1) H) as (Ha & _ & Hlt & lo' & Hb & Hlo').
    split; [split; assumption |]. split; [exact (ascending_ge (x :: r) lo (conj Hlo Ha)) |]. split.
    + intros pl pl' [<- | Hin] Hin'; [pose proof (ascending_ge b lo' Hb pl' Hin'); lia | exact (Hlt pl pl' Hin Hin')].
    + exists lo'. split; [exact Hb | lia].
Qed.

Lemma zassoc_get_app_notin {V} k (a b : list (Z * V)) : (forall k' v', In (k', v') a -> k' <> k) -> zassoc_get k (a ++ b) = zassoc_get k b.
Proof.
  induction a as [| [k' v'] r IH]; intros H; cbn [app zassoc_get]; [reflexivity |].
  destruct (Z.eqb_spec k k') as [-> | _]; [exfalso; apply (H k' v'); [left; reflexivity | reflexivity] |].
  apply IH. intros a0 b0 Hin. apply (H a0 b0). right. exact Hin.
Qed.

Lemma line_syms_split : forall pls base k a d, In (k, (a, d)) (line_syms pls base) ->
  exists before pl after, pls = before ++ pl :: after /\ k = Z.of_N (fst pl) /\ a = base + lenN (prog_ops before).
Proof.
  induction pls as [| pl r IH]; intros base k a d H; [destruct H |]. cbn [line_syms] in H. destruct H as [E | H].
  - injection E as <- <- _. exists [], pl, r. repeat split. symmetry. apply N.add_0_r.
  - destruct (IH _ k a d H) as (before & pl' & after & -> & Ek & ->). exists (pl :: before), pl', after.
    split; [reflexivity |]. split; [exact Ek |]. cbn [prog_ops flat_map]. fold (prog_ops before). rewrite lenN_app. lia.
Qed.

Lemma line_syms_keys : forall pls base k v, In (k, v) (line_syms pls base) -> exists pl, In pl pls /\ k = Z.of_N (fst pl).
Proof.
  intros pls base k [a d] H. destruct (line_syms_split pls base k a d H) as (before & pl & after & -> & Ek & _).
  exists pl. split; [apply in_elt | exact Ek].
Qed.

Theorem line_address : forall before n ps after lo, ascending (before ++ (n, ps) :: after) lo ->
  zassoc_get (Z.of_N n) (line_syms (before ++ (n, ps) :: after) 0) = Some (lenN (prog_ops before), 0).
Proof.
  intros before n ps after lo Ha. rewrite line_syms_app. rewrite zassoc_get_app_notin.
  - cbn [line_syms zassoc_get]. rewrite Z.eqb_refl. rewrite N.add_0_l. reflexivity.
  - intros k' v' Hin E. destruct (line_syms_keys _ _ _ _ Hin) as (pl & Hpl & Ek).
    destruct (ascending_app before ((n, ps) :: after) lo Ha) as (_ & _ & Hlt & _).
    specialize (Hlt pl (n, ps) Hpl (or_introl eq_refl)). cbn in Hlt. lia.
Qed.

Theorem piece_address : forall before n pb p pa after i op,
  nth_error (pc_ops p) i = Some op ->
  nthN (prog_ops (before ++ (n, pb ++ p :: pa) :: after))
       (lenN (prog_ops before) + lenN (flat_map pc_ops pb) + N.of_nat i) = Some op.
Proof.
  intros before n pb p pa after i op Hi. rewrite prog_ops_app. cbn [prog_ops flat_map]. unfold line_ops at 1. cbn [snd].
  rewrite flat_map_app. cbn [flat_map]. unfold nthN, lenN.
  rewrite nth_error_app2 by lia. rewrite <- !app_assoc. rewrite nth_error_app2 by lia. rewrite nth_error_app1.
  - rewrite <- Hi. f_equal. lia.
  - apply nth_error_Some. replace (_ - _ - _)%nat with i by lia. congruence.
Qed.

Theorem ref_address : forall before n pb p pa after k v,
  In (k, v) (pc_refs p) ->
  In (lenN (prog_ops before) + lenN (flat_map pc_ops pb) + k, v) (line_refs (before ++ (n, pb ++ p :: pa) :: after) 0).
Proof.
  intros before n pb p pa after k v Hin. rewrite line_refs_app. apply in_or_app. right. cbn [line_refs snd]. apply in_or_app. left.
  rewrite piece_refs_app. apply in_or_app. right. cbn [piece_refs]. apply in_or_app. left.
  unfold shift. rewrite in_map_iff. exists (k, v). split; [cbn; f_equal; lia | exact Hin].
Qed.

Definition piece_at (pls : list pline) (a : N) (p : piece) : Prop :=
  exists before n pb pa after, pls = before ++ (n, pb ++ p :: pa) :: after /\ a = lenN (prog_ops before) + lenN (flat_map pc_ops pb).

Lemma piece_at_op pls a p i op : piece_at pls a p -> nth_error (pc_ops p) i = Some op -> nthN (prog_ops pls) (a + N.of_nat i) = Some op.
Proof. intros (before & n & pb & pa & after & -> & ->). apply piece_address. Qed.

Lemma piece_at_ref pls a p k v : piece_at pls a p -> In (k, v) (pc_refs p) -> In (a + k, v) (line_refs pls 0).
Proof. intros (before & n & pb & pa & after & -> & ->). apply ref_address. Qed.

Lemma piece_at_split pls a p : piece_at pls a p -> exists front back, prog_ops pls = front ++ pc_ops p ++ back /\ lenN front = a.
Proof.
  intros (before & n & pb & pa & after & -> & ->).
  exists (prog_ops before ++ flat_map pc_ops pb), (flat_map pc_ops pa ++ prog_ops after). split; [| apply lenN_app].
  rewrite prog_ops_app. cbn [prog_ops flat_map]. unfold line_ops at 1. cbn [snd]. rewrite flat_map_app. cbn [flat_map].
  rewrite <- !app_assoc. reflexivity.
Qed.

Definition good_piece (p : piece) : Prop := exists s, fstmt s p.
Definition good_prog (pls : list pline) : Prop := Forall (fun pl => Forall good_piece (snd pl)) pls.

Lemma keys_inc_app : forall a b lo hi, keys_inc a lo -> keys_below a hi -> keys_inc b hi -> lo <= hi -> keys_inc (a ++ b) lo.
Proof.
  induction a as [| [k v] r IH]; intros b lo hi Ha Hb Hinc Hl; cbn [app].
  - exact (keys_inc_weaken b hi lo Hl Hinc).
  - cbn [keys_inc] in *. destruct Ha as [Hk Ha]. split; [exact Hk |].
    apply (IH b (k + 1) hi Ha); [intros k' v' Hin; apply (Hb k' v'); right; exact Hin | exact Hinc |].
    specialize (Hb k v (or_introl eq_refl)). lia.
Qed.

Lemma shift_below : forall refs by_ hi, keys_below refs hi -> keys_below (shift by_ refs) (hi + by_).
Proof. intros refs by_ hi H k v Hin. unfold shift in Hin. rewrite in_map_iff in Hin. destruct Hin as [[k0 v0] [E Hin]]. injection E as <- <-. specialize (H k0 v0 Hin). lia. Qed.

Definition keyed (l : list (N * (col * Z))) (lo hi : N) : Prop := keys_inc l lo /\ keys_below l hi.

Lemma keyed_app a b lo mid hi : keyed a lo mid -> keyed b mid hi -> lo <= mid -> mid <= hi -> keyed (a ++ b) lo hi.
Proof.
  intros [Ia Ba] [Ib Bb] H1 H2. split; [exact (keys_inc_app a b lo mid Ia Ba Ib H1) |].
  intros k v Hin. apply in_app_or in Hin. destruct Hin as [Hin | Hin]; [specialize (Ba k v Hin) | specialize (Bb k v Hin)]; lia.
Qed.

Lemma piece_refs_inc : forall ps base, Forall good_piece ps -> keyed (piece_refs ps base) base (base + lenN (flat_map pc_ops ps)).
Proof.
  induction ps as [| p r IH]; intros base Hg; cbn [piece_refs flat_map]; [split; [exact I | intros k v []] |].
  inversion Hg as [| ? ? [s Hs] Hr]; subst. rewrite lenN_app, N.add_assoc.
  apply (keyed_app _ _ base (base + lenN (pc_ops p))); [| exact (IH _ Hr) | lia | lia]. split.
  - pose proof (shift_inc (pc_refs p) 0 base (fstmt_refs_inc s p Hs)) as H0. rewrite N.add_0_l in H0. exact H0.
  - intros k v Hin. pose proof (shift_below (pc_refs p) base _ (fun k v H => proj1 (refs_in_code s p Hs k v H)) k v Hin). lia.
Qed.

Lemma line_refs_inc : forall pls base, good_prog pls -> keyed (line_refs pls base) base (base + lenN (prog_ops pls)).
Proof.
  induction pls as [| pl r IH]; intros base Hg; cbn [line_refs prog_ops flat_map]; [split; [exact I | intros k v []] |].
  inversion Hg as [| ? ? Hpl Hr]; subst. fold (prog_ops r). rewrite lenN_app, N.add_assoc.
  apply (keyed_app _ _ base (base + lenN (line_ops pl))); [exact (piece_refs_inc (snd pl) base Hpl) | exact (IH _ Hr) | lia | lia].
Qed.

Lemma keys_inc_nodup : forall l lo, keys_inc l lo -> NoDup (map fst l) /\ (forall k, In k (map fst l) -> lo <= k).
Proof.
  induction l as [| [k v] r IH]; intros lo H; cbn [map]; [split; [constructor | intros k []] |].
  cbn [keys_inc] in H. destruct H as [Hk H]. destruct (IH (k + 1) H) as [Hnd Hge]. split.
  - constructor; [| exact Hnd]. intros Hin. specialize (Hge k Hin). lia.
  - intros k' [<- | Hin]; [exact Hk | specialize (Hge k' Hin); lia].
Qed.

Definition last_nonempty (pls : list pline) : Prop := match rev pls with pl :: _ => line_ops pl <> [] | [] => False end.

Lemma last_nonempty_tail : forall a b, last_nonempty (a ++ b) -> b <> [] -> prog_ops b <> [].
Proof.
  intros a b H Hb. destruct (exists_last Hb) as (b' & z & ->). unfold last_nonempty in H. rewrite app_assoc, rev_app_distr in H. cbn [rev app] in H.
  rewrite prog_ops_app. unfold prog_ops at 2. cbn [flat_map]. rewrite app_nil_r. intros E. apply app_eq_nil in E. destruct E as [_ E]. contradiction.
Qed.

Lemma start_lt pls pb n ps pa : pls = pb ++ (n, ps) :: pa -> last_nonempty pls -> lenN (prog_ops pb) < lenN (prog_ops pls).
Proof.
  intros E H. rewrite E in *. rewrite prog_ops_app, lenN_app. pose proof (last_nonempty_tail pb ((n, ps) :: pa) H ltac:(discriminate)) as Hn.
  destruct (prog_ops ((n, ps) :: pa)); [contradiction |]. unfold lenN. cbn [length]. lia.
Qed.

Lemma no_symbol_at_end pls : last_nonempty pls ->
  existsb (fun e : Z * (N * N) => fst (snd e) =? lenN (prog_ops pls)) (line_syms pls 0) = false.
Proof.
  intros Hl. apply not_true_is_false. intros H. apply existsb_exists in H. destruct H as [[k [a d]] [Hin E]].
  cbn in E. apply N.eqb_eq in E. destruct (line_syms_split pls 0 k a d Hin) as (before & [n ps] & after & Ep & _ & Ea).
  pose proof (start_lt pls before n ps after Ep Hl). lia.
Qed.

Definition final_ops (pls : list pline) : list opcode :=
  fst (fold_left (lstep (line_syms pls 0)) (line_refs pls 0) (prog_ops pls, [])).

(* Program::link on a compiled program of the fragment that ends in END: the code is the layout's code with every
   recorded reference patched through the symbol table; the direct-mode area starts right behind it *)
Theorem link_layout : forall P pls dp lo, pg_link P = layout pls dp -> pg_direct P = 0 -> ascending pls lo ->
  last_is_end (prog_ops pls) = true -> last_nonempty pls ->
  l_ops (pg_link (program_link P)) = final_ops pls /\ pg_direct (program_link P) = lenN (final_ops pls)
  /\ l_data (pg_link (program_link P)) = [] /\ l_data_pos (pg_link (program_link P)) = dp.
Proof.
  intros P pls dp lo HL Hd Ha Hend Hne. unfold program_link. rewrite HL, (layout_explicit pls dp lo Ha).
  cbn [plink l_ops l_syms]. rewrite Hend, (no_symbol_at_end pls Hne). cbn [andb negb].
  rewrite HL, (layout_explicit pls dp lo Ha). unfold link_link. cbn [plink l_whiles l_syms l_unlinked l_ops l_data l_data_pos l_direct_set link_whiles_loop].
  rewrite app_nil_r.
  match goal with |- context [fold_left ?f (line_refs pls 0) (prog_ops pls, [])] => change f with (lstep (line_syms pls 0)) end.
  fold (final_ops pls) in *. unfold final_ops.
  destruct (fold_left (lstep (line_syms pls 0)) (line_refs pls 0) (prog_ops pls, [])) as [ops errs]. cbn [fst].
  rewrite Hd. cbn [N.eqb]. cbn. repeat split; reflexivity.
Qed.

Theorem final_other : forall pls a, ~ In a (map fst (line_refs pls 0)) -> nthN (final_ops pls) a = nthN (prog_ops pls) a.
Proof. intros pls a H. unfold final_ops. exact (fold_other (line_syms pls 0) (line_refs pls 0) (prog_ops pls, []) a H). Qed.

Theorem final_jump : forall pls a c n' s', good_prog pls ->
  In (a, (c, Z.of_N n')) (line_refs pls 0) -> nthN (prog_ops pls) a = Some (OpJump 0) ->
  zassoc_get (Z.of_N n') (line_syms pls 0) = Some (s', 0) ->
  nthN (final_ops pls) a = Some (OpJump s').
Proof.
  intros pls a c n' s' Hg Hin Hop Hs. unfold final_ops.
  destruct (line_refs_inc pls 0 Hg) as [Hinc _]. destruct (keys_inc_nodup _ _ Hinc) as [Hnd _].
  exact (fold_patches (line_syms pls 0) (line_refs pls 0) (prog_ops pls, []) a c (Z.of_N n') (s', 0) (OpJump 0) (OpJump s') Hnd Hin Hs Hop eq_refl).
Qed.

Lemma final_length pls : lenN (final_ops pls) = lenN (prog_ops pls).
Proof.
  unfold final_ops. generalize (line_refs pls 0). generalize (@nil error). generalize (prog_ops pls).
  intros ops errs refs. revert ops errs. induction refs as [| e r IH]; intros ops errs; cbn [fold_left fst]; [reflexivity |].
  assert (E : lenN (fst (lstep (line_syms pls 0) (ops, errs) e)) = lenN ops).
  { unfold lstep. destruct e as [addr [c sym]]. destruct (zassoc_get sym (line_syms pls 0)); [| destruct (0 <=? sym)%Z; reflexivity].
    destruct (nthN ops addr); [| reflexivity]. destruct (patch_op o p); [| reflexivity]. cbn [fst]. unfold lenN. rewrite list_set_length. reflexivity. }
  destruct (lstep (line_syms pls 0) (ops, errs) e) as [ops' errs']. cbn [fst] in E. rewrite IH. exact E.
Qed.
