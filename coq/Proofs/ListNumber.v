(* C05 / C15: the line number survives listing -- entering the listed text of line n gives line n again. *)
From BL Require Import Base.Prelude Mach.Func Lang.Lex Proofs.DecN Proofs.LexTotal.
Local Open Scope N_scope.

Lemma digit_not_ws c : is_digit c = true -> is_ws c = false.
Proof.
  intros H. apply digit_range in H. unfold is_ws.
  destruct (N.eqb_spec c 32); [lia |]. destruct (N.eqb_spec c 9); [lia | reflexivity].
Qed.

Lemma prefix_len_digits : forall ds rest seen k, all_b is_digit ds = true ->
  prefix_len (ds ++ 32 :: rest) seen k = if (match ds with [] => seen | _ => true end) then k + lenN ds else prefix_len (32 :: rest) seen k.
Proof.
  induction ds as [| d ds IH]; intros rest seen k H.
  - cbn [app]. destruct seen; [| reflexivity]. cbn. unfold lenN. cbn. lia.
  - cbn [all_b] in H. apply andb_prop in H. destruct H as [Hd Hds].
    cbn [app prefix_len]. rewrite (digit_not_ws d Hd), andb_false_r, Hd.
    rewrite (IH rest true (k + 1) Hds). unfold lenN. cbn [length]. destruct ds; cbn; lia.
Qed.

Lemma trim_start_digits ds : match ds with d :: _ => is_digit d = true | [] => True end -> trim_start ds = ds.
Proof.
  destruct ds as [| d ds]; [reflexivity |]. intros Hd. cbn.
  assert (Hu : is_uws d = false).
  { apply digit_range in Hd.
    unfold is_uws. repeat match goal with |- context [?a =? ?b] => destruct (N.eqb_spec a b); [lia |] end.
    repeat match goal with |- context [?a <=? ?b] => destruct (N.leb_spec a b); try lia end; reflexivity. }
  rewrite Hu. reflexivity.
Qed.

Theorem relist_line_number : forall n body, n <= 65529 ->
  split_line_number (dec_of_N n ++ 32 :: body) = (Some n, body).
Proof.
  intros n body Hn. unfold split_line_number.
  pose proof (dec_of_N_digits n) as Hd. pose proof (parse_dec_of_N n) as Hp.
  assert (Hne : dec_of_N n <> []) by (intros E; rewrite E in Hp; discriminate).
  rewrite (prefix_len_digits (dec_of_N n) body false 0 Hd).
  destruct (dec_of_N n) as [| d ds] eqn:Ed; [contradiction |]. rewrite <- Ed in *. cbn [N.add].
  replace (0 + lenN (dec_of_N n)) with (lenN (dec_of_N n)) by lia.
  assert (Hf : firstnN (lenN (dec_of_N n)) (dec_of_N n ++ 32 :: body) = dec_of_N n).
  { unfold firstnN, lenN. rewrite Nat2N.id. rewrite firstn_app, Nat.sub_diag, firstn_all. cbn. apply app_nil_r. }
  assert (Hs : skipnN (lenN (dec_of_N n)) (dec_of_N n ++ 32 :: body) = 32 :: body).
  { unfold skipnN, lenN. rewrite Nat2N.id. rewrite skipn_app, Nat.sub_diag, skipn_all. reflexivity. }
  rewrite Hf, Hs.
  assert (Hd0 : is_digit d = true) by (rewrite Ed in Hd; cbn in Hd; apply andb_prop in Hd; tauto).
  rewrite trim_start_digits by (rewrite Ed; exact Hd0).
  unfold parse_u16. rewrite Ed. 
  assert (Hplus : (d =? 43) = false).
  { apply digit_range in Hd0. apply N.eqb_neq. lia. }
  rewrite Hplus, <- Ed, Hp.
  destruct (N.leb_spec n 65535); [| lia]. destruct (N.leb_spec n 65529); [| lia]. cbn. reflexivity.
Qed.

