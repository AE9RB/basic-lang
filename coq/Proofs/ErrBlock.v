(* C19: jumps are blocked only while errors are recorded for the stored program (the blocked and the direct-line case:
   Props/C19.v). *)
From BL Require Import Base.Prelude Mach.Compile Mach.Runtime.
Local Open Scope N_scope.

(* without recorded errors a jump is an ordinary jump wherever it goes *)
Theorem jump_clean_program : forall O a r, exec_op O false (OpJump a) r = (set_pc r a, Ok None).
Proof. intros. reflexivity. Qed.
