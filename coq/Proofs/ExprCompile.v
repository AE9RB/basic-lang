(* C01 / C02: for expressions built from literals, scalar variables, unary minus, NOT and the binary operators,
   the code the compiler emits, run on the VM model, computes what the reference semantics prescribes.
   Three steps: (1) the emitted code is the postfix form of the expression (cg_expr_postfix); (2) the VM running a
   postfix form pushes the value of the expression or stops with its error (Section VM; through the VM's own fetch loop:
   Section Fetch); (3) the reference semantics Sem.eval computes the same value (Section Spec).  Section Let: the same
   three for LET v = e with a scalar v. *)
From BL Require Import Base.Prelude Base.Floats Mach.Val Mach.Ops Mach.Func Mach.Var
     Lang.Token Lang.Lex Lang.Ast Lang.Parse Mach.Compile Mach.Listing Mach.Runtime Spec.Sem.
From Coq Require Import Lia.
Local Open Scope N_scope.

Fixpoint pure (e : expr) : bool :=
  match e with
  | ESng _ _ | EDbl _ _ | EInt _ _ | EStr _ _ => true
  | EUnary _ i => match builtin_arity (ident_str i) with None => true | Some _ => false end
  | ENeg _ x | ENot _ x => pure x
  | EBin _ _ a b => pure a && pure b
  | EArray _ _ _ => false
  end.

Fixpoint postfix (e : expr) : list opcode :=
  match e with
  | ESng _ b => [OpLiteral (VSng b)]
  | EDbl _ b => [OpLiteral (VDbl b)]
  | EInt _ n => [OpLiteral (VInt n)]
  | EStr _ s => [OpLiteral (VStr s)]
  | EUnary _ i => [OpPush (ident_str i)]
  | ENeg _ x => postfix x ++ [OpNeg]
  | ENot _ x => postfix x ++ [OpNot]
  | EBin _ o a b => postfix a ++ postfix b ++ [OpBin o]
  | EArray _ _ _ => []
  end.

Definition plain (ops : list opcode) : link := mkLink 0 ops [] 0 false [] [] [].

Lemma lenN_one {A} (x : A) : lenN [x] = 1.
Proof. reflexivity. Qed.

Lemma lenN_app {A} (a b : list A) : lenN (a ++ b) = lenN a + lenN b.
Proof. unfold lenN. rewrite app_length. lia. Qed.

(* What an action of the link monad does on a link without DATA: it returns x, moves the local-symbol counter by d, appends
   code, and records the references refs b, where b is the address at which that code starts; the rest of the link stays.
   The predicate is closed under bind, so what a code-generation function emits is read off its definition. *)
Definition set_refs (refs unl : list (N * (col * Z))) : list (N * (col * Z)) :=
  fold_left (fun u r => nassoc_set (fst r) (snd r) u) refs unl.

Definition appends {A} (m : LM A) (x : A) (d : Z) (code : list opcode) (refs : N -> list (N * (col * Z))) : Prop :=
  forall l, l_data l = [] -> lenN (l_ops l ++ code) <= MAX_POOL ->
    m l = (mkLink (l_cur l + d) (l_ops l ++ code) [] (l_data_pos l) (l_direct_set l) (l_syms l)
                  (set_refs (refs (lenN (l_ops l))) (l_unlinked l)) (l_whiles l), Ok x).

Lemma appends_bind {A B} (m : LM A) (f : A -> LM B) x y d1 d2 c1 c2 r1 r2 :
  appends m x d1 c1 r1 -> appends (f x) y d2 c2 r2 ->
  appends (lbind m f) y (d1 + d2) (c1 ++ c2) (fun b => r1 b ++ r2 (b + lenN c1)).
Proof.
  intros Hm Hf l Hd Hl. unfold lbind. rewrite app_assoc in Hl.
  rewrite (Hm l Hd) by (rewrite lenN_app in Hl; lia). set (l1 := mkLink _ _ _ _ _ _ _ _). rewrite (Hf l1 eq_refl Hl).
  unfold l1, set_refs. cbn [l_cur l_ops l_data_pos l_direct_set l_syms l_unlinked l_whiles].
  rewrite fold_left_app, lenN_app, Z.add_assoc, app_assoc. reflexivity.
Qed.

Lemma appends_eq {A} (m : LM A) x d d' c c' r r' :
  appends m x d c r -> d = d' -> c = c' -> (forall b, r b = r' b) -> appends m x d' c' r'.
Proof. intros H <- <- Hr l Hd Hl. rewrite <- Hr. exact (H l Hd Hl). Qed.

Lemma appends_ret {A} (x : A) : appends (lret x) x 0 [] (fun _ => []).
Proof. intros l Hd _. unfold lret. rewrite app_nil_r, Z.add_0_r, <- Hd. destruct l; reflexivity. Qed.

Lemma appends_push op : appends (l_push op) tt 0 [op] (fun _ => []).
Proof.
  intros l Hd Hl. unfold l_push, set_ops. cbn [l_ops]. destruct (N.ltb_spec MAX_POOL (lenN (l_ops l ++ [op]))); [lia |].
  rewrite Z.add_0_r, Hd. reflexivity.
Qed.

Lemma appends_code ops : appends (l_append (plain ops)) tt 0 ops (fun _ => []).
Proof.
  intros l Hd Hl. unfold l_append, plain, set_data. cbn [l_data l_ops l_cur l_syms l_unlinked l_whiles fold_left map].
  rewrite Bool.andb_false_r, Hd. cbn [l_ops]. destruct (N.ltb_spec MAX_POOL (lenN (l_ops l ++ ops))); [lia |].
  cbn. rewrite app_nil_r. reflexivity.
Qed.

Lemma appends_unlink c s : appends (l_unlink_here c s) tt 0 [] (fun b => [(b, (c, s))]).
Proof. intros l Hd _. unfold l_unlink_here. rewrite app_nil_r, Z.add_0_r, Hd. reflexivity. Qed.

(* the symbol taken depends on the link, so it is the rest of the action that is described *)
Lemma appends_next_symbol {B} (f : Z -> LM B) y d c r :
  (forall s, appends (f s) y d c r) -> appends (lbind l_next_symbol f) y (-1 + d) c r.
Proof.
  intros Hf l Hd Hl. unfold lbind, l_next_symbol. set (l1 := mkLink _ _ _ _ _ _ _ _). rewrite (Hf _ l1 Hd Hl).
  unfold l1. cbn [l_cur l_ops l_data_pos l_direct_set l_syms l_unlinked l_whiles]. replace (l_cur l - 1 + d)%Z with (l_cur l + (-1 + d))%Z by lia. reflexivity.
Qed.

Lemma flat_map_single {X Y} (f : X -> Y) l : flat_map (fun x => [f x]) l = map f l.
Proof. induction l; cbn; congruence. Qed.

Lemma appends_fold {X} (f : X -> LM unit) (code : X -> list opcode) : forall (xs : list X) (m0 : LM unit) c0,
  (forall x, In x xs -> appends (f x) tt 0 (code x) (fun _ => [])) -> appends m0 tt 0 c0 (fun _ => []) ->
  appends (fold_left (fun m x => ldo _ <~ m ;; f x) xs m0) tt 0 (c0 ++ flat_map code xs) (fun _ => []).
Proof.
  induction xs as [| x r IH]; intros m0 c0 Hf H0; cbn [flat_map fold_left].
  - rewrite app_nil_r. exact H0.
  - rewrite app_assoc. apply IH; [intros y Hy; apply Hf; right; exact Hy |].
    exact (appends_eq _ _ _ _ _ _ _ _ (appends_bind _ _ _ _ _ _ _ _ _ _ H0 (Hf x (or_introl eq_refl))) eq_refl eq_refl (fun _ => eq_refl)).
Qed.

(* reads what a sequence of binds emits off the lemmas above; tac describes the steps that are not primitives *)
Ltac appends_by tac :=
  eapply appends_eq;
  [repeat first [tac | eapply appends_bind | apply appends_ret | apply appends_push | apply appends_code | apply appends_unlink | progress cbv beta]
  | try reflexivity | try reflexivity | try (intros ?; reflexivity)].
Ltac appends_seq := appends_by fail.

Lemma run_frag_appends (m : LM col) x d code refs : appends m x d code refs -> lenN code <= MAX_POOL ->
  run_frag m = ((x, mkLink d code [] 0 false [] (set_refs (refs 0) []) []), []).
Proof. intros H Hl. unfold run_frag. rewrite (H link_empty eq_refl Hl). reflexivity. Qed.

Theorem cg_expr_postfix : forall e, pure e = true -> lenN (postfix e) <= MAX_POOL ->
  snd (fst (cg_expr e)) = plain (postfix e) /\ snd (cg_expr e) = [].
Proof.
  induction e as [c i | c i args | c b | c b | c n | c s | c x IH | c x IH | c o a IHa b IHb]; intros Hp Hl; cbn [pure postfix] in *;
    try discriminate.
  2-5: split; reflexivity.
  (* unary minus and NOT alike *)
  2-3: destruct (IH Hp ltac:(rewrite lenN_app in Hl; lia)) as [E1 E2]; cbn [cg_expr];
    destruct (cg_expr x) as [[xc xl] xerrs]; cbn [fst snd] in E1, E2; subst xl xerrs;
    erewrite (run_frag_appends _ (fst c, snd xc) 0 _ (fun _ => [])); [split; reflexivity | appends_seq | exact Hl].
  - cbn [cg_expr]. unfold push_as_expression. cbn [vi_link vi_name vi_len vi_col].
    destruct (builtin_arity (ident_str i)); [discriminate |].
    rewrite (run_frag_appends _ c 0 [OpPush (ident_str i)] (fun _ => [])); [split; reflexivity | appends_seq | exact Hl].
  - apply andb_prop in Hp. destruct Hp as [Hpa Hpb]. pose proof Hl as Hl'. rewrite !lenN_app in Hl'.
    destruct (IHa Hpa ltac:(lia)) as [A1 A2]. destruct (IHb Hpb ltac:(lia)) as [B1 B2]. cbn [cg_expr].
    destruct (cg_expr a) as [[ac al] aerrs]. destruct (cg_expr b) as [[bc bl] berrs]. cbn [fst snd] in A1, A2, B1, B2. subst al aerrs bl berrs.
    rewrite (run_frag_appends _ (fst ac, snd bc) 0 (postfix a ++ postfix b ++ [OpBin o]) (fun _ => [])); [split; reflexivity | appends_seq | exact Hl].
Qed.

Section VM.
Variable O : oracle.

Fixpoint eval_pure (vs : varstore) (e : expr) : res val :=
  match e with
  | ESng _ b => Ok (VSng b)
  | EDbl _ b => Ok (VDbl b)
  | EInt _ n => Ok (VInt n)
  | EStr _ s => Ok (VStr s)
  | EUnary _ i => var_fetch vs (ident_str i)
  | ENeg _ x => do v <- eval_pure vs x; op_negate v
  | ENot _ x => do v <- eval_pure vs x; op_not v
  | EBin _ o a b => do x <- eval_pure vs a; do y <- eval_pure vs b; binop_fn O o x y
  | EArray _ _ _ => err E_Internal
  end.

(* straight-line execution of a list of opcodes, none of which may produce an event *)
Fixpoint run_ops (h : bool) (ops : list opcode) : RM unit :=
  match ops with
  | [] => rret tt
  | op :: rest => rdo e <~ exec_op O h op ;; match e with None => run_ops h rest | Some _ => rfail E_Internal end
  end.

Lemma run_ops_app h a b r :
  run_ops h (a ++ b) r = match run_ops h a r with (r1, Ok _) => run_ops h b r1 | (r1, Err e) => (r1, Err e) | (r1, Panic) => (r1, Panic) | (r1, Hang) => (r1, Hang) end.
Proof.
  revert r. induction a as [| op a IH]; intros r; [reflexivity |]. cbn [app run_ops]. unfold rbind.
  destruct (exec_op O h op r) as [r1 [[ev |] | e | |]]; try reflexivity. apply IH.
Qed.

Definition pushed (r : rt) (v : val) : rt := set_stack_len r (v :: r_stack r) (r_slen r + 1).

Lemma push_ok r v : r_slen r + 1 <= MAX_POOL -> push v r = (pushed r v, Ok tt).
Proof. intros H. unfold push, pushed. cbn. destruct (N.ltb_spec MAX_POOL (r_slen r + 1)); [lia | reflexivity]. Qed.

Definition runs {A} (h : bool) (ops : list opcode) (r0 : rt) (x : res A) (post : A -> rt) : Prop :=
  match x with
  | Ok a => run_ops h ops r0 = (post a, Ok tt)
  | Err er => snd (run_ops h ops r0) = Err er
  | Panic => snd (run_ops h ops r0) = Panic
  | Hang => snd (run_ops h ops r0) = Hang
  end.

Lemma runs_app {A B} h a b r0 (x : res A) (k : A -> res B) post1 post2 :
  runs h a r0 x post1 -> (forall v, x = Ok v -> runs h b (post1 v) (k v) post2) -> runs h (a ++ b) r0 (bind x k) post2.
Proof.
  intros Ha Hb. unfold runs in *. rewrite run_ops_app. destruct x as [v | er | |]; cbn [bind];
    [rewrite Ha; exact (Hb v eq_refl) | ..];
    destruct (run_ops h a r0) as [r1 [u | e1 | |]]; cbn [snd] in Ha; try discriminate; exact Ha.
Qed.

Lemma run_literal h v r : r_slen r + 1 <= MAX_POOL -> runs h [OpLiteral v] r (Ok v) (pushed r).
Proof. intros H. unfold runs. cbn [run_ops exec_op]. unfold rbind. rewrite push_ok by exact H. reflexivity. Qed.

Lemma run_unop h op f r v : exec_op O h op = (rdo _ <~ pop_1_push f ;; rret None) -> r_slen r + 1 <= MAX_POOL ->
  runs h [op] (pushed r v) (f v) (pushed r).
Proof.
  intros E H. unfold runs. cbn [run_ops]. rewrite E. unfold rbind, pop_1_push, rbind, pop. cbn [pushed set_stack_len r_stack r_slen rlift].
  destruct (f v) as [w | er | |]; try reflexivity.
  unfold push. cbn. destruct (N.ltb_spec MAX_POOL (r_slen r + 1 - 1 + 1)); [lia |].
  unfold pushed. cbn. replace (r_slen r + 1 - 1 + 1) with (r_slen r + 1) by lia. reflexivity.
Qed.

Lemma run_binop h o r x y : r_slen r + 1 <= MAX_POOL -> runs h [OpBin o] (pushed (pushed r x) y) (binop_fn O o x y) (pushed r).
Proof.
  intros H. unfold runs. cbn [run_ops exec_op]. unfold rbind, pop_2_push, rbind, pop2, rbind, pop.
  cbn [pushed set_stack_len r_stack r_slen rlift rret fst snd].
  destruct (binop_fn O o x y) as [w | er | |]; try reflexivity.
  unfold push. cbn. destruct (N.ltb_spec MAX_POOL (r_slen r + 1 + 1 - 1 - 1 + 1)); [lia |].
  unfold pushed. cbn. replace (r_slen r + 1 + 1 - 1 - 1 + 1) with (r_slen r + 1) by lia. reflexivity.
Qed.

Theorem run_postfix : forall h e r, pure e = true -> r_slen r + lenN (postfix e) <= MAX_POOL ->
  match eval_pure (r_vars r) e with
  | Ok v => run_ops h (postfix e) r = (pushed r v, Ok tt)
  | Err er => snd (run_ops h (postfix e) r) = Err er
  | Panic => snd (run_ops h (postfix e) r) = Panic
  | Hang => snd (run_ops h (postfix e) r) = Hang
  end.
Proof.
  intros h e.
  change (forall r, pure e = true -> r_slen r + lenN (postfix e) <= MAX_POOL -> runs h (postfix e) r (eval_pure (r_vars r) e) (pushed r)).
  induction e as [c i | c i args | c b | c b | c n | c s | c x IH | c x IH | c o a IHa b IHb]; intros r Hp Hl;
    cbn [pure postfix eval_pure] in *; try discriminate.
  2-5: apply run_literal; exact Hl.
  (* unary minus and NOT *)
  2-3: rewrite lenN_app, lenN_one in Hl;
    apply (runs_app h _ _ r _ _ (pushed r)); [apply IH; [exact Hp | lia] | intros v _; apply run_unop; [reflexivity | lia]].
  - unfold runs. cbn [run_ops exec_op]. unfold rbind. cbn [rget rlift].
    destruct (var_fetch (r_vars r) (ident_str i)) as [v | er | |]; try reflexivity.
    rewrite push_ok by exact Hl. reflexivity.
  - apply andb_prop in Hp. destruct Hp as [Hpa Hpb]. rewrite !lenN_app, lenN_one in Hl.
    apply (runs_app h _ _ r _ _ (pushed r)); [apply IHa; [exact Hpa | lia] | intros x _].
    apply (runs_app h _ _ (pushed r x) _ _ (pushed (pushed r x))); [apply (IHb (pushed r x)); [exact Hpb | cbn; lia] | intros y _; apply run_binop; lia].
Qed.

End VM.

Section Spec.
Variable O : oracle.

Fixpoint depth (e : expr) : nat :=
  match e with
  | ENeg _ x | ENot _ x => S (depth x)
  | EBin _ _ a b => S (Nat.max (depth a) (depth b))
  | _ => 0%nat
  end.

Lemma apply_binop_fn b x y : apply_binop O b x y = binop_fn O b x y.
Proof. destruct b; reflexivity. Qed.

Theorem sem_eval_pure : forall fuel e s line, pure e = true -> (depth e < fuel)%nat -> s_locals s = [] ->
  eval O fuel line e s = (s, of_res (eval_pure O (s_vars s) e)).
Proof.
  induction fuel as [| f IH]; intros e s line Hp Hd Hloc; [lia |].
  destruct e as [c i | c i args | c b | c b | c n | c st | c x | c x | c o a b]; cbn [pure depth] in *; try discriminate; cbn [eval eval_pure].
  2-5: reflexivity.
  2-3: unfold sbind; rewrite (IH x s line Hp ltac:(lia) Hloc); destruct (eval_pure O (s_vars s) x) as [v | er | |]; reflexivity.
  - destruct (builtin_arity (ident_str i)); [discriminate |].
    unfold fetch_var, sbind, sget. rewrite Hloc. cbn. reflexivity.
  - apply andb_prop in Hp. destruct Hp as [Hpa Hpb].
    unfold sbind. rewrite (IH a s line Hpa ltac:(lia) Hloc).
    destruct (eval_pure O (s_vars s) a) as [x | er | |]; try reflexivity. cbn [of_res bind].
    rewrite (IH b s line Hpb ltac:(lia) Hloc).
    destruct (eval_pure O (s_vars s) b) as [y | er | |]; try reflexivity. cbn [of_res bind].
    unfold slift. rewrite apply_binop_fn. reflexivity.
Qed.

End Spec.

From BL Require Import Proofs.RMFrame Proofs.Slicing.

Section Fetch.
Variable O : oracle.

(* opcodes of expression code and of scalar assignment neither read nor write the program counter, the program or the trace flags *)
Definition expr_op (op : opcode) : bool :=
  match op with OpLiteral _ | OpPush _ | OpPop _ | OpNeg | OpNot | OpBin _ => true | _ => false end.

Definition ctl_eq (r r' : rt) : Prop :=
  r_prog r' = r_prog r /\ r_tron r' = r_tron r /\ r_tr r' = r_tr r.

Definition pc_free {A} (m : RM A) : Prop := forall r a,
  m (set_pc r a) = (set_pc (fst (m r)) a, snd (m r)) /\ ctl_eq r (fst (m r)).

Lemma pc_free_bind {A B} (m : RM A) (f : A -> RM B) : pc_free m -> (forall x, pc_free (f x)) -> pc_free (rbind m f).
Proof.
  intros Hm Hf r a. destruct (Hm r a) as (E & P & T & Tr). unfold rbind. rewrite E.
  destruct (m r) as [r1 [x | er | |]]; cbn [fst snd] in *; try (repeat split; assumption).
  destruct (Hf x r1 a) as (E' & P' & T' & Tr'). rewrite E'. repeat split; congruence.
Qed.

Lemma pc_free_push v : pc_free (push v).
Proof. intros r a. unfold push. cbn. destruct (MAX_POOL <? r_slen r + 1); repeat split. Qed.

Lemma pc_free_pop : pc_free pop.
Proof. intros r a. unfold pop. cbn [r_stack set_pc]. destruct (r_stack r); repeat split. Qed.

Lemma pc_free_result (x : res val) : pc_free (rdo w <~ rlift x ;; push w).
Proof. apply pc_free_bind; [intros r a; repeat split | exact pc_free_push]. Qed.

Lemma pc_free_vars {A} (f : varstore -> RM A) : (forall vs, pc_free (f vs)) -> pc_free (fun r => f (r_vars r) r).
Proof. intros H r a. exact (H (r_vars r) r a). Qed.

Lemma expr_op_pc h op r a : expr_op op = true ->
  exec_op O h op (set_pc r a) = (set_pc (fst (exec_op O h op r)) a, snd (exec_op O h op r))
  /\ ctl_eq r (fst (exec_op O h op r)) /\ (forall e, snd (exec_op O h op r) = Ok (Some e) -> False).
Proof.
  intros H.
  assert (F : exists m : RM unit, pc_free m /\ exec_op O h op = (rdo _ <~ m ;; rret None)).
  { destruct op; try discriminate; eexists; (split; [| reflexivity]).
    - exact (pc_free_push _).
    - apply (pc_free_vars (fun vs => rdo v <~ rlift (var_fetch vs _) ;; push v)). intros vs. apply pc_free_result.
    - apply pc_free_bind; [exact pc_free_pop | intros v].
      apply (pc_free_vars (fun vs r => match var_store vs _ v with
                                       | Ok vs' => (set_vars r vs', Ok tt) | Err e => (r, Err e) | Panic => (r, Panic) | Hang => (r, Hang)
                                       end)).
      intros vs r0 a0. destruct (var_store vs _ v); repeat split.
    - apply pc_free_bind; [exact pc_free_pop | intros v; apply pc_free_result].
    - apply pc_free_bind; [exact pc_free_pop | intros v; apply pc_free_result].
    - apply pc_free_bind; [| intros p; apply pc_free_result].
      apply pc_free_bind; [exact pc_free_pop | intros y]. apply pc_free_bind; [exact pc_free_pop | intros x r0 a0; repeat split]. }
  destruct F as (m & Hm & ->). destruct (Hm r a) as (E & C). unfold rbind. rewrite E.
  destruct (m r) as [r1 [u | er | |]]; cbn [fst snd] in *; repeat split; try apply C; intros e He; discriminate.
Qed.

Lemma postfix_expr_ops e : pure e = true -> forallb expr_op (postfix e) = true.
Proof.
  induction e; cbn [pure postfix]; intros H; try discriminate; try reflexivity.
  1-2: rewrite forallb_app, IHe by exact H; reflexivity.
  apply andb_prop in H. destruct H as [Ha Hb]. rewrite !forallb_app, IHe1, IHe2 by assumption. reflexivity.
Qed.

Definition code_at (r : rt) (a : N) (code : list opcode) : Prop :=
  forall i op, nth_error code i = Some op -> nthN (l_ops (pg_link (r_prog r))) (a + N.of_nat i) = Some op.

Lemma code_at_head r a op code : code_at r a (op :: code) -> nthN (l_ops (pg_link (r_prog r))) a = Some op.
Proof. intros H. rewrite <- (N.add_0_r a). exact (H 0%nat op eq_refl). Qed.

Definition no_event {A} (x : res A) : res (option event) :=
  match x with Ok _ => Ok None | Err e => Err e | Panic => Panic | Hang => Hang end.

Lemma loop_step m h r op : r_tron r = false -> nthN (l_ops (pg_link (r_prog r))) (r_pc r) = Some op ->
  exec_loop_x O (S m) h r =
  match exec_op O h op (set_pc r (r_pc r + 1)) with
  | (r1, Ok None) => exec_loop_x O m h r1
  | other => other
  end.
Proof.
  intros Htr Hop. cbn [exec_loop_x]. cbv beta delta [rbind rget rret rmod] iota. rewrite Htr. cbn [andb]. cbv beta iota.
  rewrite one_op_eq, Hop. destruct (exec_op O h op (set_pc r (r_pc r + 1))) as [r1 [[ev |] | e | |]]; reflexivity.
Qed.

(* run_ops never looks at the program counter, so it may start from r itself *)
Theorem loop_code : forall code m h r a, forallb expr_op code = true -> r_tron r = false -> code_at r a code ->
  match run_ops O h code r with
  | (r1, Ok _) => exec_loop_x O (length code + m) h (set_pc r a) = exec_loop_x O m h (set_pc r1 (a + lenN code))
  | (_, x) => snd (exec_loop_x O (length code + m) h (set_pc r a)) = no_event x
  end.
Proof.
  induction code as [| op code IH]; intros m h r a Hops Htr Hat.
  - cbn [run_ops rret length Nat.add]. change (lenN (@nil opcode)) with 0. rewrite N.add_0_r. reflexivity.
  - cbn [forallb] in Hops. apply andb_prop in Hops. destruct Hops as [Hop Hops].
    cbn [length Nat.add]. rewrite (loop_step _ h (set_pc r a) op Htr (code_at_head r a op code Hat)).
    change (set_pc (set_pc r a) (r_pc (set_pc r a) + 1)) with (set_pc r (a + 1)).
    destruct (expr_op_pc h op r (a + 1) Hop) as (Epc & (Hprog & Htron & _) & Hnoev). rewrite Epc.
    cbn [run_ops]. unfold rbind. destruct (exec_op O h op r) as [r1 [[ev |] | er | |]]; cbn [fst snd] in *; try reflexivity.
    + destruct (Hnoev ev eq_refl).
    + replace (a + lenN (op :: code)) with (a + 1 + lenN code) by (unfold lenN; cbn [length]; lia).
      apply IH; [exact Hops | rewrite Htron; exact Htr |]. intros i o Hi. rewrite Hprog.
      replace (a + 1 + N.of_nat i) with (a + N.of_nat (S i)) by lia. exact (Hat (S i) o Hi).
Qed.

Corollary loop_runs {A} code m h r (x : res A) post :
  forallb expr_op code = true -> r_tron r = false -> code_at r (r_pc r) code -> runs O h code r x post ->
  match x with
  | Ok v => exec_loop_x O (length code + m) h r = exec_loop_x O m h (set_pc (post v) (r_pc r + lenN code))
  | Err er => snd (exec_loop_x O (length code + m) h r) = Err er
  | Panic => snd (exec_loop_x O (length code + m) h r) = Panic
  | Hang => snd (exec_loop_x O (length code + m) h r) = Hang
  end.
Proof.
  intros Hops Htr Hat Hrun. pose proof (loop_code code m h r (r_pc r) Hops Htr Hat) as H.
  replace (set_pc r (r_pc r)) with r in H by (destruct r; reflexivity). unfold runs in Hrun.
  destruct x as [v | er | |]; [rewrite Hrun in H; exact H | ..];
    destruct (run_ops O h code r) as [r1 y]; cbn [snd] in Hrun; subst y; exact H.
Qed.

End Fetch.

Section Let.
Variable O : oracle.

Definition let_code (i : ident) (e : expr) : list opcode := postfix e ++ [OpPop (ident_str i)].

Theorem cg_let_shape : forall c cv i e, pure e = true -> builtin_arity (ident_str i) = None ->
  lenN (let_code i e) <= MAX_POOL ->
  snd (fst (cg_stmt (SLet c (VUnary cv i) e))) = plain (let_code i e) /\ snd (cg_stmt (SLet c (VUnary cv i) e)) = [].
Proof.
  intros c cv i e Hp Hb Hl. unfold let_code in *.
  destruct (cg_expr_postfix e Hp ltac:(rewrite lenN_app in Hl; lia)) as [E1 E2].
  cbn [cg_stmt cg_var]. destruct (cg_expr e) as [[fc fl] ferrs]. cbn [fst snd] in E1, E2. subst fl ferrs.
  unfold push_as_pop, test_for_built_in. cbn [vi_name vi_len vi_col vi_link fst snd]. rewrite Hb.
  rewrite (run_frag_appends _ (fst c, snd fc) 0 (postfix e ++ [OpPop (ident_str i)]) (fun _ => [])); [split; reflexivity | appends_seq | exact Hl].
Qed.

Lemma run_pop h n r v : runs O h [OpPop n] (pushed r v) (var_store (r_vars r) n v) (set_vars r).
Proof.
  unfold runs. cbn [run_ops exec_op]. unfold rbind, pop. cbn [pushed set_stack_len r_stack r_slen r_vars].
  destruct (var_store (r_vars r) n v) as [vs | er | |]; try reflexivity.
  cbn. replace (r_slen r + 1 - 1) with (r_slen r) by lia. destruct r; reflexivity.
Qed.

Theorem run_let : forall h i e r, pure e = true -> r_slen r + lenN (postfix e) <= MAX_POOL ->
  runs O h (let_code i e) r (bind (eval_pure O (r_vars r) e) (var_store (r_vars r) (ident_str i))) (set_vars r).
Proof.
  intros h i e r Hp Hs.
  exact (runs_app O h (postfix e) [OpPop (ident_str i)] r _ _ (pushed r) (set_vars r)
           (run_postfix O h e r Hp Hs) (fun v _ => run_pop h (ident_str i) r v)).
Qed.

Theorem sem_let : forall fuel line cv i e s, pure e = true -> (depth e < fuel)%nat -> s_locals s = [] ->
  (sdo x <~ eval O fuel line e ;; assign O fuel line (VUnary cv i) x) s =
  match eval_pure O (s_vars s) e with
  | Ok v => match var_store (s_vars s) (ident_str i) v with
            | Ok vs => (with_vars s vs, EvOk tt)
            | Err er => (s, EvErr (ecode er))
            | _ => (s, EvUndef)
            end
  | Err er => (s, EvErr (ecode er))
  | _ => (s, EvUndef)
  end.
Proof.
  intros fuel line cv i e s Hp Hd Hloc. unfold sbind. rewrite (sem_eval_pure O fuel e s line Hp Hd Hloc).
  destruct (eval_pure O (s_vars s) e) as [v | er | |]; reflexivity.
Qed.

End Let.
