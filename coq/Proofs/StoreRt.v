(* C15 at the level of the runtime: the states reachable through enter / execute / interrupt (`reachable`, also used for the
   stack bound of C18), and that in every one of them the stored lines ascend strictly. *)
From BL Require Import Base.Prelude Mach.Val Mach.Compile Mach.Listing Mach.Runtime Proofs.RMFrame Proofs.Dirty
     Proofs.Slicing Proofs.Store.
Local Open Scope N_scope.

Definition Sorted (r : rt) : Prop := asc (ls_lines (r_listing r)).

Lemma sorted_frame : forall r r', r_listing r' = r_listing r -> r_dirty r' = r_dirty r ->
  l_ops (pg_link (r_prog r')) = l_ops (pg_link (r_prog r)) -> Sorted r -> Sorted r'.
Proof. intros r r' E _ _ H. unfold Sorted. rewrite E. exact H. Qed.

(* RENUM rebuilds the listing by inserting the renumbered lines one by one *)
Lemma renum_sorted : forall l a b c l', listing_renum l a b c = Ok l' -> asc (ls_lines l').
Proof.
  intros l a b c l' H. unfold listing_renum in H. destruct (c =? 0); [discriminate |].
  destruct (renum_changes _ _ _ _ _ _ _) as [ch | | |]; cbn in H; try discriminate.
  match type of H with bind ?f _ = _ => destruct f as [ls | | |] eqn:Ef end; cbn in H; try discriminate.
  injection H as <-. cbn.
  assert (Hinv : forall lines acc ls, (forall x, acc = Ok x -> asc x) ->
            fold_left (fun acc e => do ls <- acc; do nl <- line_renum ch (Some (fst e), snd e);
                                    match fst nl with Some n => Ok (lines_insert ls n (snd nl)) | None => Ok ls end) lines acc = Ok ls -> asc ls).
  { induction lines as [| e r IH]; intros acc ls0 Hacc Hf; cbn in Hf; [exact (Hacc _ Hf) |].
    refine (IH _ _ _ Hf). intros x Hx. destruct acc as [y | | |]; cbn in Hx; try discriminate.
    destruct (line_renum ch (Some (fst e), snd e)) as [nl | | |]; cbn in Hx; try discriminate.
    destruct (fst nl); injection Hx as <-; [apply insert_asc |]; apply Hacc; reflexivity. }
  refine (Hinv _ _ _ _ Ef). intros x Hx. injection Hx as <-. constructor.
Qed.

Section Rt.
Variable O : oracle.

Lemma sorted_edit_ok : forall h op, is_edit_op op = true -> all_ops op = true -> hoare Sorted Sorted (exec_op O h op).
Proof.
  intros h op He _. apply (tr_edit_ops O Sorted sorted_frame Sorted); [split | exact He].
  - intros r H. unfold Sorted. cbn. constructor.
  - intros r a b H. unfold Sorted. cbn. apply filter_asc. exact H.
  - intros r l a b c H E. unfold Sorted. cbn. exact (renum_sorted _ _ _ _ _ E).
  - intros r H. exact H.
Qed.

Definition sorted_execute := tr_rt_execute O Sorted sorted_frame all_ops sorted_edit_ok (fun _ _ _ _ => eq_refl).

Lemma sorted_enter : forall r s r' b, Sorted r -> rt_enter O r s = Ok (r', b) -> Sorted r'.
Proof.
  intros r s r' b H E. apply (rt_enter_cases O Sorted r s r' b E); try exact H.
  - apply (tr_enter_input O Sorted sorted_frame); exact H.
  - apply (tr_enter_inkey O Sorted sorted_frame); exact H.
  - intros l. unfold Sorted. rewrite (proj1 (direct_keeps_lines r l)). exact H.
  - intros l r1 Ei. unfold enter_indirect in Ei. unfold Sorted.
    destruct (fst l); [| injection Ei as <-; exact H].
    destruct (snd l); injection Ei as <-; cbn; [apply remove_asc | apply insert_asc]; exact H.
Qed.

Lemma sorted_interrupt : forall r, Sorted r -> Sorted (rt_interrupt r).
Proof. intros r H. unfold Sorted. rewrite (proj2 (dirty_tracks_edits_interrupt r)). exact H. Qed.

(* every state the public API can reach from start-up *)
Inductive reachable : rt -> Prop :=
| reach_start : reachable rt_default
| reach_enter : forall r s r' b, reachable r -> rt_enter O r s = Ok (r', b) -> reachable r'
| reach_execute : forall r n r' e, reachable r -> rt_execute O r n = Ok (r', e) -> reachable r'
| reach_interrupt : forall r, reachable r -> reachable (rt_interrupt r)
| reach_snapshot : forall r hold, reachable r -> reachable (rt_get_listing r hold)
| reach_drop : forall r, reachable r -> reachable (rt_drop_listing r).

Theorem reachable_sorted : forall r, reachable r -> Sorted r.
Proof.
  induction 1 as [| r s r' b _ IH E | r n r' e _ IH E | r _ IH | r hold _ IH | r _ IH].
  - constructor.
  - exact (sorted_enter _ _ _ _ IH E).
  - exact (sorted_execute _ _ _ _ IH E).
  - exact (sorted_interrupt _ IH).
  - destruct hold; exact IH.
  - exact IH.
Qed.
End Rt.
