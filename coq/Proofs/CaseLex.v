(* C16: the token loop does not depend on letter case -- for every text without a string literal and without a remark (inside
   those, every character is kept as typed, so case matters there by design); `raw_tokens` / `lex_raw` connect the loop to
   `lex`, whose post passes see tokens only (the theorem about `lex` is C16_lex_ignores_case). *)
From BL Require Import Base.Prelude Lang.Token Mach.Func Lang.Lex Proofs.CaseFold.
From BL Require Export Proofs.LexSteps.
Local Open Scope N_scope.

Lemma same_letters_refl a : same_letters a a. Proof. reflexivity. Qed.

Lemma nonletter_eq c d : to_upper c = to_upper d -> is_alpha c = false -> c = d.
Proof.
  intros H Ha. destruct (to_upper_cases c d H) as [E | [[Hc ->] | [Hd ->]]]; [exact E | |].
  - exfalso. unfold is_alpha in Ha. rewrite (proj2 (lower_range c) Hc), Bool.orb_true_r in Ha. discriminate.
  - exfalso. unfold is_alpha in Ha. rewrite (proj2 (upper_range (d - 32))) in Ha by lia. discriminate.
Qed.

Lemma eqb_nonletter c d k : to_upper c = to_upper d -> is_alpha k = false -> (c =? k) = (d =? k).
Proof.
  intros H Hk. destruct (N.eqb_spec c k) as [-> | Hn].
  - rewrite <- (nonletter_eq k d H Hk). symmetry. apply N.eqb_refl.
  - destruct (N.eqb_spec d k) as [-> | _]; [| reflexivity]. exfalso. apply Hn. symmetry. apply (nonletter_eq k c (eq_sym H) Hk).
Qed.

Lemma eqb_letter c k l : 65 <= k <= 90 -> l = k + 32 -> (c =? k) || (c =? l) = (to_upper c =? k).
Proof.
  intros Hk ->. unfold to_upper. destruct (is_lower c) eqn:E.
  - apply lower_range in E. destruct (N.eqb_spec c k), (N.eqb_spec c (k + 32)), (N.eqb_spec (c - 32) k); try reflexivity; lia.
  - destruct (N.eqb_spec c (k + 32)) as [-> |]; [| apply Bool.orb_false_r].
    rewrite (proj2 (lower_range (k + 32))) in E by lia. discriminate.
Qed.

Lemma ws_loop_case : forall cs cs' n, same_letters cs cs' ->
  fst (ws_loop cs n) = fst (ws_loop cs' n) /\ same_letters (snd (ws_loop cs n)) (snd (ws_loop cs' n)).
Proof.
  intros cs cs' n H. revert n. induction H as [| c c' r r' Hc Hr IH] using same_letters_ind; intros n; [split; reflexivity |].
  cbn [ws_loop]. destruct (to_upper_class c c' Hc) as (_ & _ & _ & Ew). rewrite <- Ew.
  destruct (is_ws c); [apply IH | cbn [fst snd]; split; [reflexivity | exact (same_letters_cons c c' r r' Hc Hr)]].
Qed.

(* the number scanner normalises the exponent letters; a pushed-back letter comes back in upper case *)
Definition expl (c : N) : bool := (c =? 69) || (c =? 101) || (c =? 68) || (c =? 100).
Definition nc (c : N) : bool := is_digit c || (c =? 46) || (c =? 43) || (c =? 45) || expl c || (c =? 33) || (c =? 35) || (c =? 37).
Definition nc_head (cs : str) : Prop := match cs with [] => True | c :: _ => nc c = true end.
Definition norm_e (c : N) : N := if c =? 101 then 69 else if c =? 100 then 68 else c.

Lemma expl_upper c : expl c = (to_upper c =? 69) || (to_upper c =? 68).
Proof. unfold expl. rewrite <- (eqb_letter c 69 101), <- (eqb_letter c 68 100) by lia. symmetry. apply Bool.orb_assoc. Qed.

Lemma expl_case c d : to_upper c = to_upper d -> expl c = expl d.
Proof. intros H. rewrite !expl_upper, H. reflexivity. Qed.

Lemma nc_case c d : to_upper c = to_upper d -> nc c = nc d.
Proof.
  intros H. unfold nc. destruct (to_upper_class c d H) as (_ & -> & _ & _).
  rewrite (expl_case c d H), (eqb_nonletter c d 46 H eq_refl), (eqb_nonletter c d 43 H eq_refl), (eqb_nonletter c d 45 H eq_refl),
          (eqb_nonletter c d 33 H eq_refl), (eqb_nonletter c d 35 H eq_refl), (eqb_nonletter c d 37 H eq_refl).
  reflexivity.
Qed.

(* among the number characters only e and d are lower-case letters *)
Lemma norm_e_upper c : nc c = true -> norm_e c = to_upper c.
Proof.
  intros Hn. unfold norm_e. destruct (N.eqb_spec c 101) as [-> |]; [reflexivity |]. destruct (N.eqb_spec c 100) as [-> |]; [reflexivity |].
  unfold to_upper. destruct (is_lower c) eqn:El; [| reflexivity]. exfalso. apply lower_range in El.
  revert Hn. unfold nc, expl. rewrite !Bool.orb_true_iff, !N.eqb_eq, digit_range. lia.
Qed.

Lemma norm_e_case c d : to_upper c = to_upper d -> nc c = true -> norm_e c = norm_e d.
Proof.
  intros H Hn. rewrite (norm_e_upper c Hn), (norm_e_upper d), H; [reflexivity |]. rewrite <- (nc_case c d H). exact Hn.
Qed.

Definition num_rel (x y : res (token * str)) : Prop :=
  match x, y with
  | Ok (t, r), Ok (t', r') => t = t' /\ same_letters r r'
  | Err e, Err e' => e = e'
  | Panic, Panic => True
  | Hang, Hang => True
  | _, _ => False
  end.

Lemma number_loop_case : forall cs cs' s d dec ex, same_letters cs cs' -> nc_head cs ->
  num_rel (number_loop cs s d dec ex) (number_loop cs' s d dec ex).
Proof.
  intros cs cs' s d dec ex H. revert s d dec ex.
  induction H as [| c0 c0' rest rest' Hc Hr IH] using same_letters_ind; intros s d dec ex Hnc; cbn [number_loop]; rewrite ?finish_eq.
  - split; reflexivity.
  - cbn [nc_head] in Hnc. fold (norm_e c0). fold (norm_e c0'). rewrite <- (norm_e_case c0 c0' Hc Hnc). set (ch := norm_e c0).
    destruct (same_letters_view _ _ Hr) as [| pk pk' r2 r2' Hpk Hr2].
    { repeat match goal with |- num_rel (if ?b then _ else _) _ => destruct b end; split; reflexivity. }
    (* no test on the next character sees its case, so both sides branch alike *)
    destruct (to_upper_class pk pk' Hpk) as (_ & Ed & _ & _).
    change ((pk' =? 69) || (pk' =? 101) || (pk' =? 68) || (pk' =? 100)) with (expl pk').
    change ((pk =? 69) || (pk =? 101) || (pk =? 68) || (pk =? 100)) with (expl pk).
    rewrite <- (eqb_nonletter pk pk' 43 Hpk eq_refl), <- (eqb_nonletter pk pk' 45 Hpk eq_refl), <- (eqb_nonletter pk pk' 46 Hpk eq_refl),
            <- (eqb_nonletter pk pk' 33 Hpk eq_refl), <- (eqb_nonletter pk pk' 35 Hpk eq_refl), <- (eqb_nonletter pk pk' 37 Hpk eq_refl),
            <- Ed, <- (expl_case pk pk' Hpk).
    repeat match goal with |- num_rel (if ?b then _ else _) _ => destruct b eqn:? end;
      try (split; [reflexivity | first [exact Hr | apply same_letters_cons; [reflexivity | exact Hr]]]).
    (* where the loop goes on, the last conjunct of the test just passed (T) names a number character *)
    all: apply IH; cbn [nc_head]; unfold nc; match goal with H : _ = true |- _ => rename H into T end.
    all: repeat match type of T with _ && _ = true => apply andb_prop in T; destruct T as [_ T] end.
    all: repeat match type of T with _ || _ = true => apply Bool.orb_prop in T; destruct T as [T | T] end.
    all: rewrite T, ?Bool.orb_true_r; reflexivity.
Qed.

Lemma to_upper_idem c : to_upper (to_upper c) = to_upper c.
Proof.
  unfold to_upper. destruct (is_lower c) eqn:E; [| rewrite E; reflexivity]. apply lower_range in E.
  assert (is_lower (c - 32) = false) by (apply not_true_is_false; intros F; apply lower_range in F; lia). rewrite H. reflexivity.
Qed.

Lemma radix_loop_case : forall cs cs' hex acc, same_letters cs cs' ->
  fst (radix_loop cs hex acc) = fst (radix_loop cs' hex acc) /\ same_letters (snd (radix_loop cs hex acc)) (snd (radix_loop cs' hex acc)).
Proof.
  intros cs cs' hex acc H. revert acc. induction H as [| c c' r r' Hc Hr IH] using same_letters_ind; intros acc; [split; reflexivity |].
  cbn [radix_loop]. rewrite <- Hc.
  match goal with |- context [if ?b then _ else _] => destruct b end.
  - apply IH.
  - cbn [fst snd]. split; [reflexivity |]. apply same_letters_cons; [reflexivity | exact Hr].
Qed.

Lemma radix_case cs cs' : same_letters cs cs' ->
  fst (lex_radix cs) = fst (lex_radix cs') /\ same_letters (snd (lex_radix cs)) (snd (lex_radix cs')).
Proof.
  intros H. unfold lex_radix. destruct (same_letters_view _ _ H) as [| h h' r r' Hh Hr]; [split; reflexivity |].
  assert (Eh : ((h =? 72) || (h =? 104)) = ((h' =? 72) || (h' =? 104))).
  { rewrite (eqb_letter h 72 104), (eqb_letter h' 72 104), Hh by lia. reflexivity. }
  rewrite <- Eh. destruct ((h =? 72) || (h =? 104)).
  - destruct (same_result _ _ (radix_loop_case r r' true [] Hr)) as (rest' & -> & E). destruct (radix_loop r true []). split; [reflexivity | exact E].
  - destruct (same_result _ _ (radix_loop_case (h :: r) (h' :: r') false [] H)) as (rest' & -> & E). destruct (radix_loop (h :: r) false []). split; [reflexivity | exact E].
Qed.

(* punctuation and unknown characters: no letter is consumed *)
Lemma minutia_loop_case : forall cs cs' acc, same_letters cs cs' -> match cs with c :: _ => is_alpha c = false | [] => True end ->
  fst (minutia_loop cs acc) = fst (minutia_loop cs' acc) /\ same_letters (snd (minutia_loop cs acc)) (snd (minutia_loop cs' acc)).
Proof.
  intros cs cs' acc H. revert acc. induction H as [| c c' r r' Hc Hr IH] using same_letters_ind; intros acc Hna; [split; reflexivity |].
  rewrite <- (nonletter_eq c c' Hc Hna). cbn [minutia_loop].
  destruct (same_letters_view _ _ Hr) as [| pk pk' r2 r2' Hpk Hr2]; [split; reflexivity |].
  destruct (to_upper_class pk pk' Hpk) as (Ea & Ed & _ & Ew). rewrite <- Ea, <- Ed, <- Ew.
  destruct (is_alpha pk) eqn:Eal; cbn [orb]; [split; [reflexivity | exact Hr] |].
  destruct (is_digit pk || is_ws pk); [split; [reflexivity | exact Hr] |]. apply IH. reflexivity.
Qed.

Lemma minutia_case cs cs' : same_letters cs cs' -> match cs with c :: _ => is_alpha c = false | [] => True end ->
  fst (lex_minutia cs) = fst (lex_minutia cs') /\ same_letters (snd (lex_minutia cs)) (snd (lex_minutia cs')).
Proof.
  intros H Hna. unfold lex_minutia. destruct (same_letters_view _ _ H) as [| c c' r r' Hc Hr]; [split; reflexivity |].
  pose proof (nonletter_eq c c' Hc Hna) as Ec. subst c'. destruct (match_minutia c); [split; [reflexivity | exact Hr] |].
  apply minutia_loop_case; assumption.
Qed.

Definition verbatim (t : token) : bool :=
  match t with TLit (LStr _) | TWord WRem1 | TWord WRem2 => true | _ => false end.
Definition no_verbatim (ts : list token) : Prop := forall t, In t ts -> verbatim t = false.

Lemma no_verbatim_app a b : no_verbatim (a ++ b) -> no_verbatim a /\ no_verbatim b.
Proof. intros H. split; intros t Hin; apply H; apply in_or_app; [left | right]; exact Hin. Qed.

Lemma scan1_case cs cs' toks next : same_letters cs cs' -> scan1 cs = Ok (toks, next) -> no_verbatim toks ->
  match next with
  | Some rest => exists rest', scan1 cs' = Ok (toks, Some rest') /\ same_letters rest rest'
  | None => scan1 cs' = Ok (toks, None)
  end.
Proof.
  intros H E Hnv. destruct (same_letters_view _ _ H) as [| pk pk' r r' Hpk Hr]; [injection E as <- <-; reflexivity |].
  unfold scan1 in *. destruct (to_upper_class pk pk' Hpk) as (Ea & Ed & _ & Ew).
  rewrite <- Ew, <- Ed, <- Ea, <- (eqb_nonletter pk pk' 46 Hpk eq_refl), <- (eqb_nonletter pk pk' 34 Hpk eq_refl), <- (eqb_nonletter pk pk' 38 Hpk eq_refl).
  destruct (is_ws pk).
  { destruct (same_result _ _ (ws_loop_case (pk :: r) (pk' :: r') 0 H)) as (rest' & -> & E2). destruct (ws_loop (pk :: r) 0) as [t rest].
    injection E as <- <-. exists rest'. split; [reflexivity | exact E2]. }
  destruct (is_digit pk || (pk =? 46)) eqn:Enum.
  { assert (Hnc : nc_head (pk :: r)).
    { cbn [nc_head]. unfold nc. apply Bool.orb_prop in Enum. destruct Enum as [En | En]; rewrite En, ?Bool.orb_true_r; reflexivity. }
    pose proof (number_loop_case (pk :: r) (pk' :: r') [] 0 false false H Hnc) as Hn. unfold lex_number in *.
    destruct (number_loop (pk :: r) [] 0 false false) as [[t rest] | e | |]; try discriminate.
    destruct (number_loop (pk' :: r') [] 0 false false) as [[t' rest'] | e' | |]; cbn [num_rel] in Hn; try contradiction.
    destruct Hn as [<- Hrr]. injection E as <- <-. exists rest'. split; [reflexivity | exact Hrr]. }
  destruct (is_alpha pk) eqn:Eal.
  { destruct (same_result _ _ (alpha_loop_case (pk :: r) (pk' :: r') [] false [] H)) as (rest' & -> & E2).
    destruct (alpha_loop (pk :: r) [] false []) as [tk rest]. cbn [fst snd] in *.
    destruct (is_rem1 tk) eqn:Er; injection E as <- <-; [| exists rest'; split; [reflexivity | exact E2]].
    exfalso. apply is_rem1_in in Er. specialize (Hnv _ (in_or_app _ _ _ (or_introl Er))). discriminate. }
  destruct (pk =? 34).
  { exfalso. destruct (string_loop_spec r []) as (s & rest & Es & _). rewrite Es in E. injection E as <- _.
    specialize (Hnv _ (or_introl eq_refl)). discriminate. }
  destruct (pk =? 38).
  { destruct (same_result _ _ (radix_case r r' Hr)) as (rest' & -> & E2). destruct (lex_radix r) as [t rest].
    injection E as <- <-. exists rest'. split; [reflexivity | exact E2]. }
  destruct (same_result _ _ (minutia_case (pk :: r) (pk' :: r') H Eal)) as (rest' & -> & E2).
  destruct (lex_minutia (pk :: r)) as [t rest]. cbn [fst snd] in *.
  destruct (is_rem2 t) eqn:Er; injection E as <- <-; [| exists rest'; split; [reflexivity | exact E2]].
  exfalso. apply is_rem2_eq in Er. subst t. specialize (Hnv _ (or_introl eq_refl)). discriminate.
Qed.

Theorem scan_case : forall fuel cs cs' ts, same_letters cs cs' -> scan fuel cs = Ok ts -> no_verbatim ts -> scan fuel cs' = Ok ts.
Proof.
  induction fuel as [| f IH]; intros cs cs' ts H E Hnv; [discriminate |].
  destruct (same_letters_view _ _ H) as [| pk pk' r r' Hpk Hr]; [exact E |]. cbn [scan] in *.
  destruct (scan1 (pk :: r)) as [[toks next] | | |] eqn:E1; try discriminate. cbn [bind fst snd] in E.
  destruct next as [rest |].
  - destruct (scan f rest) as [ts' | | |] eqn:E2; try discriminate. injection E as <-.
    apply no_verbatim_app in Hnv. destruct Hnv as [Hn1 Hn2].
    destruct (scan1_case _ _ _ _ H E1 Hn1) as (rest' & -> & Hrr). cbn [bind fst snd]. rewrite (IH _ _ _ Hrr E2 Hn2). reflexivity.
  - injection E as <-. rewrite (scan1_case _ _ _ _ H E1 Hnv). reflexivity.
Qed.

Lemma same_letters_length a b : same_letters a b -> List.length a = List.length b.
Proof. unfold same_letters. intros H. apply (f_equal (@List.length N)) in H. rewrite !map_length in H. exact H. Qed.
Lemma same_letters_skipn k a b : same_letters a b -> same_letters (skipn k a) (skipn k b).
Proof. unfold same_letters. intros H. rewrite <- !skipn_map, H. reflexivity. Qed.

Lemma prefix_len_ge : forall cs sd n, n <= prefix_len cs sd n.
Proof.
  induction cs as [| c r IH]; intros sd n; cbn [prefix_len]; [lia |].
  destruct (sd && is_ws c); [lia |]. destruct (is_digit c); [specialize (IH true (n + 1)); lia |]. destruct (is_ws c); [specialize (IH sd (n + 1)); lia | lia].
Qed.

Lemma prefix_case : forall a b sd n, same_letters a b ->
  prefix_len a sd n = prefix_len b sd n /\ forall k, N.of_nat k <= prefix_len a sd n - n -> firstn k a = firstn k b.
Proof.
  intros a b sd n H. revert sd n.
  induction H as [| c c' r r' Hc Hr IH] using same_letters_ind; intros sd n; [split; [reflexivity | intros; reflexivity] |].
  - destruct (to_upper_class c c' Hc) as (_ & Ed & _ & Ew). cbn [prefix_len]. rewrite <- Ed, <- Ew.
    destruct (sd && is_ws c); [split; [reflexivity |]; intros k Hk; assert (k = 0%nat) by lia; subst; reflexivity |].
    assert (Hstep : forall sd', is_alpha c = false -> 
              prefix_len r sd' (n + 1) = prefix_len r' sd' (n + 1) /\ (forall k, N.of_nat k <= prefix_len r sd' (n + 1) - n -> firstn k (c :: r) = firstn k (c' :: r'))).
    { intros sd' Hna. destruct (IH sd' (n + 1)) as [E1 E2]. split; [exact E1 |]. intros k Hk. destruct k as [| k]; [reflexivity |].
      cbn [firstn]. rewrite (nonletter_eq c c' Hc Hna). f_equal. apply E2. pose proof (prefix_len_ge r sd' (n + 1)). lia. }
    destruct (is_digit c) eqn:Edg.
    + apply Hstep. unfold is_alpha, is_upper, is_lower. apply digit_range in Edg.
      destruct (N.leb_spec 65 c), (N.leb_spec 97 c); try lia; reflexivity.
    + destruct (is_ws c) eqn:Ews.
      * apply Hstep. unfold is_ws in Ews. unfold is_alpha, is_upper, is_lower.
        destruct (N.eqb_spec c 32), (N.eqb_spec c 9); try discriminate; subst; reflexivity.
      * split; [reflexivity |]. intros k Hk. assert (k = 0%nat) by lia. subst. reflexivity.
Qed.

Lemma split_case src src' : same_letters src src' ->
  fst (split_line_number src) = fst (split_line_number src') /\ same_letters (snd (split_line_number src)) (snd (split_line_number src')).
Proof.
  intros H. unfold split_line_number. destruct (prefix_case src src' false 0 H) as [Ep Ef]. rewrite <- Ep. set (p := prefix_len src false 0).
  unfold firstnN, skipnN. rewrite <- (Ef (N.to_nat p)) by lia.
  destruct (parse_u16 (trim_start (firstn (N.to_nat p) src))) as [num |]; [| split; [reflexivity | exact H]].
  destruct (num <=? 65529); [| split; [reflexivity | exact H]]. cbn [fst snd]. split; [reflexivity |].
  pose proof (same_letters_skipn (N.to_nat p) src src' H) as Hs.
  destruct (same_letters_view _ _ Hs) as [| c c' r r' Hc Hr]; [reflexivity |].
  rewrite <- (eqb_nonletter c c' 32 Hc eq_refl). destruct (c =? 32); [exact Hr | apply same_letters_cons; assumption].
Qed.

Definition raw_tokens (src : str) : res (list token) :=
  let body := snd (split_line_number src) in lex_loop (S (List.length body)) body [].

Lemma raw_tokens_scan src : raw_tokens src = scan (S (List.length (snd (split_line_number src)))) (snd (split_line_number src)).
Proof. apply lex_loop_nil. Qed.

Lemma lex_raw src : lex src = (do ts <- raw_tokens src; Ok (fst (split_line_number src), post_passes ts)).
Proof. rewrite raw_tokens_scan. apply lex_split. apply surjective_pairing. Qed.

From Coq Require Import String.
Example case_example :
  lex (s2l "10 for i=1 to 1e3:print a1;&hff:next") = lex (s2l "10 FOR I=1 TO 1E3:PRINT A1;&HFF:NEXT")
  /\ same_letters (s2l "10 for i=1 to 1e3:print a1;&hff:next") (s2l "10 FOR I=1 TO 1E3:PRINT A1;&HFF:NEXT")
  /\ exists ts, raw_tokens (s2l "10 for i=1 to 1e3:print a1;&hff:next") = Ok ts /\ forallb (fun t => negb (verbatim t)) ts = true.
Proof. split; [vm_compute; reflexivity |]. split; [vm_compute; reflexivity |]. eexists. split; vm_compute; reflexivity. Qed.
