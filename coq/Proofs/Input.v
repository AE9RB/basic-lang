(* For C17 (the theorems are in Props/C17.v): how a reply to INPUT is cut into fields -- lemmas about split_fields. *)
From BL Require Import Base.Prelude Mach.Runtime.
From Coq Require Import String.
Local Open Scope N_scope.

Fixpoint join_commas (fs : list str) : str :=
  match fs with
  | [] => []
  | [f] => f
  | f :: rest => f ++ 44 :: join_commas rest
  end.

Lemma split_nonempty : forall s cur q, split_fields s cur q <> [].
Proof.
  induction s as [| c r IH]; intros cur q; cbn [split_fields]; [discriminate |].
  destruct (c =? 34); [apply IH |]. destruct ((c =? 44) && negb q); [discriminate | apply IH].
Qed.

Lemma split_join_gen : forall s cur q, join_commas (split_fields s cur q) = rev cur ++ s.
Proof.
  induction s as [| c r IH]; intros cur q; cbn [split_fields].
  - cbn. rewrite app_nil_r. reflexivity.
  - destruct (c =? 34) eqn:E34.
    + rewrite IH. cbn. rewrite <- app_assoc. reflexivity.
    + destruct ((c =? 44) && negb q) eqn:E44.
      * apply andb_prop in E44. destruct E44 as [E44 _]. apply N.eqb_eq in E44. subst c.
        cbn [join_commas]. pose proof (split_nonempty r [] q) as Hne.
        destruct (split_fields r [] q) eqn:Es; [contradiction |]. rewrite <- Es, IH. reflexivity.
      * rewrite IH. cbn. rewrite <- app_assoc. reflexivity.
Qed.

(* a field: no comma outside double quotes; the result is the quote state at its end *)
Fixpoint scan (f : str) (q : bool) : option bool :=
  match f with
  | [] => Some q
  | c :: r => if c =? 34 then scan r (negb q)
              else if (c =? 44) && negb q then None
              else scan r q
  end.

Lemma split_through_field : forall f rest cur q q', scan f q = Some q' ->
  split_fields (f ++ rest) cur q = split_fields rest (rev f ++ cur) q'.
Proof.
  induction f as [| c f IH]; intros rest cur q q' H; cbn in H |- *; [injection H as <-; reflexivity |].
  destruct (c =? 34); [rewrite (IH rest (c :: cur) (negb q) q' H), <- app_assoc; reflexivity |].
  destruct ((c =? 44) && negb q); [discriminate |].
  rewrite (IH rest (c :: cur) q q' H), <- app_assoc. reflexivity.
Qed.

Example quoted_comma : split_fields (s2l "1,""a,b"",3"%string) [] false = [s2l "1"%string; s2l """a,b"""%string; s2l "3"%string].
Proof. vm_compute. reflexivity. Qed.
