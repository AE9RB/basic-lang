(* C01: control flow, part 3 -- the VM running the linked code follows the reference semantics. *)
From BL Require Import Base.Prelude Base.Floats Mach.Val Mach.Ops Mach.Func Mach.Var
     Lang.Token Lang.Lex Lang.Ast Lang.Parse Mach.Compile Mach.Listing Mach.Runtime Spec.Sem
     Proofs.ExprCompile Proofs.Slicing Proofs.Reloc Proofs.Flow Proofs.Flow2.
From Coq Require Import Lia.
Local Open Scope N_scope.

Lemma piece_ref_is_jump s p k v : fstmt s p -> In (k, v) (pc_refs p) -> nth_error (pc_ops p) (N.to_nat k) = Some (OpJump 0).
Proof.
  intros H Hin. destruct H; cbn [pc_refs pc_ops] in *; try (destruct Hin; fail).
  - destruct Hin as [E | []]. injection E as <- _. reflexivity.
  - destruct (jump_refs_keys _ _ _ _ Hin) as [Hk _]. unfold lenN in Hk. rewrite on_code_split.
    rewrite nth_error_app2 by (cbn [length]; rewrite app_length; cbn [length]; lia).
    apply nth_error_repeat. cbn [length]. rewrite app_length. cbn [length]. lia.
Qed.

Lemma in_piece_refs : forall ps base a v, In (a, v) (piece_refs ps base) ->
  exists pb p pa k, ps = pb ++ p :: pa /\ In (k, v) (pc_refs p) /\ a = base + lenN (flat_map pc_ops pb) + k.
Proof.
  induction ps as [| p r IH]; intros base a v Hin; [destruct Hin |]. cbn [piece_refs] in Hin. apply in_app_or in Hin. destruct Hin as [Hin | Hin].
  - unfold shift in Hin. rewrite in_map_iff in Hin. destruct Hin as [[k0 v0] [E Hin]]. injection E as <- <-.
    exists [], p, r, k0. split; [reflexivity |]. split; [exact Hin |]. unfold lenN. cbn. lia.
  - destruct (IH _ a v Hin) as (pb & p' & pa & k & -> & Hk & ->). exists (p :: pb), p', pa, k. split; [reflexivity |]. split; [exact Hk |].
    cbn [flat_map]. rewrite lenN_app. lia.
Qed.

Lemma in_line_refs : forall pls base a v, In (a, v) (line_refs pls base) ->
  exists a0 p k, piece_at pls a0 p /\ In (k, v) (pc_refs p) /\ a = base + a0 + k.
Proof.
  induction pls as [| [n ps] r IH]; intros base a v Hin; [destruct Hin |]. cbn [line_refs snd] in Hin. apply in_app_or in Hin. destruct Hin as [Hin | Hin].
  - destruct (in_piece_refs ps base a v Hin) as (pb & p & pa & k & -> & Hk & ->).
    exists (lenN (flat_map pc_ops pb)), p, k. split; [exists [], n, pb, pa, r; split; reflexivity |]. split; [exact Hk | lia].
  - destruct (IH _ a v Hin) as (a0 & p & k & (before & n' & pb & pa & after & -> & ->) & Hk & ->).
    exists (lenN (line_ops (n, ps)) + (lenN (prog_ops before) + lenN (flat_map pc_ops pb))), p, k.
    split; [exists ((n, ps) :: before), n', pb, pa, after; split; [reflexivity | cbn [prog_ops flat_map]; fold (prog_ops before); rewrite lenN_app; lia] |].
    split; [exact Hk | lia].
Qed.

Lemma piece_at_good pls a p : good_prog pls -> piece_at pls a p -> good_piece p.
Proof. intros Hg (before & n & pb & pa & after & -> & _). apply Forall_elt in Hg. exact (Forall_elt _ _ _ Hg). Qed.

Lemma piece_at_ref_jump pls a p k v : good_prog pls -> piece_at pls a p -> In (k, v) (pc_refs p) ->
  nthN (prog_ops pls) (a + k) = Some (OpJump 0).
Proof.
  intros Hg Hp Hin. destruct (piece_at_good pls a p Hg Hp) as [s Hs].
  rewrite <- (N2Nat.id k). exact (piece_at_op pls a p _ _ Hp (piece_ref_is_jump s p k v Hs Hin)).
Qed.

Theorem ref_holds_jump : forall pls a v, good_prog pls -> In (a, v) (line_refs pls 0) -> nthN (prog_ops pls) a = Some (OpJump 0).
Proof.
  intros pls a v Hg Hin. destruct (in_line_refs pls 0 a v Hin) as (a0 & p & k & Hp & Hk & ->). rewrite N.add_0_l.
  exact (piece_at_ref_jump pls a0 p k v Hg Hp Hk).
Qed.

Corollary final_keeps : forall pls a op, good_prog pls -> nthN (prog_ops pls) a = Some op -> op <> OpJump 0 -> nthN (final_ops pls) a = Some op.
Proof.
  intros pls a op Hg Hop Hne. rewrite final_other; [exact Hop |]. intros Hin. rewrite in_map_iff in Hin. destruct Hin as [[a' v] [E Hin]]. cbn in E. subst a'.
  rewrite (ref_holds_jump pls a v Hg Hin) in Hop. congruence.
Qed.

Section VMSide.
Variable O : oracle.
Variable pls : list pline.
Hypothesis Hgood : good_prog pls.

(* the program memory holds the linked code (direct-mode code may follow it) *)
Definition loaded (r : rt) : Prop :=
  forall a op, nthN (final_ops pls) a = Some op -> nthN (l_ops (pg_link (r_prog r))) a = Some op.

Lemma loop_jump : forall r a, r_tron r = false -> nthN (l_ops (pg_link (r_prog r))) (r_pc r) = Some (OpJump a) ->
  exec_loop_x O 1 false r = (set_pc r a, Ok None).
Proof. intros r a Htr Hop. rewrite (loop_step O 0 false r (OpJump a) Htr Hop). destruct r; reflexivity. Qed.

Lemma loaded_plain : forall r a p code post,
  loaded r -> piece_at pls a p -> pc_ops p = code ++ post -> ~ In (OpJump 0) code -> code_at r a code.
Proof.
  intros r a p code post Hl Hp Ep Hnj i op Hi. apply Hl.
  apply final_keeps; [exact Hgood | | intros ->; apply Hnj; eapply nth_error_In; exact Hi].
  apply (piece_at_op pls a p i op Hp). rewrite Ep, nth_error_app1 by (apply nth_error_Some; congruence). exact Hi.
Qed.

Lemma loaded_jump : forall r lo a p k c before' n' ps' after',
  loaded r -> ascending pls lo -> piece_at pls a p -> pls = before' ++ (n', ps') :: after' ->
  In (k, (c, Z.of_N n')) (pc_refs p) ->
  nthN (l_ops (pg_link (r_prog r))) (a + k) = Some (OpJump (lenN (prog_ops before'))).
Proof.
  intros r lo a p k c before' n' ps' after' Hl Ha Hp E' Hin. apply Hl.
  apply (final_jump pls _ c n' _ Hgood);
    [exact (piece_at_ref pls a p k _ Hp Hin) | exact (piece_at_ref_jump pls a p k _ Hgood Hp Hin) |].
  rewrite E'. apply (line_address before' n' ps' after' lo). rewrite <- E'. exact Ha.
Qed.

End VMSide.

Definition on_sel (v : val) : res Z := do sel <- to_i16 v; if (sel <? 0)%Z then err E_IllegalFunctionCall else Ok sel.

Definition sem_res {A} (st : sst) (line : N) (x : res A) (f : A -> sst * step_result) : sst * step_result :=
  match x with
  | Ok a => f a
  | Err er => (st, Halt (HError (ecode er) line))
  | _ => (st, Halt HUndefined)
  end.

Section VMStmts.
Variable O : oracle.

Definition vm_res {A} (r : rt) (m : nat) (x : res A) (Q : A -> rt -> Prop) : Prop :=
  match x with
  | Ok a => exists r', exec_loop_x O m false r = (r', Ok None) /\ Q a r'
  | Err er => snd (exec_loop_x O m false r) = Err er
  | _ => True
  end.

Definition keeps (r r' : rt) : Prop :=
  r_prog r' = r_prog r /\ r_tron r' = r_tron r /\ r_vars r' = r_vars r /\ r_stack r' = r_stack r /\ r_slen r' = r_slen r
  /\ r_col r' = r_col r.

Lemma code_at_app r a x y : code_at r a (x ++ y) -> code_at r a x /\ code_at r (a + lenN x) y.
Proof.
  intros H. split; intros i op Hi.
  - apply H. rewrite nth_error_app1 by (apply nth_error_Some; congruence). exact Hi.
  - replace (a + lenN x + N.of_nat i) with (a + N.of_nat (length x + i)) by (unfold lenN; lia). apply H.
    rewrite nth_error_app2 by lia. replace (length x + i - length x)%nat with i by lia. exact Hi.
Qed.

Lemma let_code_ops i e : pure e = true -> forallb expr_op (let_code i e) = true.
Proof. intros H. unfold let_code. rewrite forallb_app, (postfix_expr_ops e H). reflexivity. Qed.

Lemma postfix_no_jump e x : pure e = true -> x <> OpJump 0 -> ~ In (OpJump 0) (postfix e ++ [x]).
Proof.
  intros Hp Hx Hin. apply in_app_or in Hin. destruct Hin as [Hin | [E | []]]; [| exact (Hx E)].
  pose proof (postfix_expr_ops e Hp) as H. rewrite forallb_forall in H. specialize (H _ Hin). discriminate.
Qed.

Lemma vm_runs {A} code r (x : res A) post :
  forallb expr_op code = true -> r_tron r = false -> code_at r (r_pc r) code -> runs O false code r x post ->
  vm_res r (length code) x (fun a r' => r' = set_pc (post a) (r_pc r + lenN code)).
Proof.
  intros Hops Htr Hat Hrun. pose proof (loop_runs O code 0 false r x post Hops Htr Hat Hrun) as H. rewrite Nat.add_0_r in H.
  destruct x as [a | er | |]; [exists (set_pc (post a) (r_pc r + lenN code)); split; [exact H | reflexivity] | exact H | exact I | exact I].
Qed.

Lemma do_on_run : forall r0 v L stk, r_stack r0 = v :: VInt L :: stk -> (0 <= L)%Z ->
  do_on r0 = match to_i16 v with
             | Ok sel => let r' := set_stack_len r0 stk (r_slen r0 - 1 - 1) in
                         if (sel <? 0)%Z then (r', err E_IllegalFunctionCall)
                         else (set_pc r' (r_pc r0 + Z.to_N (if ((sel =? 0) || (L <? sel))%Z then L else sel - 1)), Ok tt)
             | Err er => (set_stack_len r0 (VInt L :: stk) (r_slen r0 - 1), Err er)
             | Panic => (set_stack_len r0 (VInt L :: stk) (r_slen r0 - 1), Panic)
             | Hang => (set_stack_len r0 (VInt L :: stk) (r_slen r0 - 1), Hang)
             end.
Proof.
  intros r0 v L stk Hst HL. unfold do_on, rbind, pop, rlift. rewrite Hst.
  destruct (to_i16 v) as [sel | er | |]; try reflexivity.
  cbn [set_stack_len r_stack r_slen to_i16]. destruct (Z.ltb_spec L 0); [lia |]. rewrite Bool.orb_false_r.
  destruct (sel <? 0)%Z; [reflexivity |].
  destruct ((sel =? 0) || (L <? sel))%Z; reflexivity.
Qed.

Lemma on_step r v L stk : r_tron r = false -> nthN (l_ops (pg_link (r_prog r))) (r_pc r) = Some OpOn ->
  r_stack r = v :: VInt L :: stk -> (0 <= L)%Z ->
  vm_res r 1 (on_sel v) (fun sel r' => r' = set_pc (set_stack_len r stk (r_slen r - 1 - 1))
                                              (r_pc r + 1 + Z.to_N (if ((sel =? 0) || (L <? sel))%Z then L else sel - 1))).
Proof.
  intros Htr Hop Hst HL. unfold vm_res. rewrite (loop_step O 0 false r OpOn Htr Hop). cbn [exec_op]. unfold rbind, rret.
  rewrite (do_on_run (set_pc r (r_pc r + 1)) v L stk Hst HL). unfold on_sel.
  destruct (to_i16 v) as [sel | er | |]; cbn [bind]; [| reflexivity | exact I | exact I].
  cbv zeta. destruct (sel <? 0)%Z; [reflexivity |]. eexists. split; reflexivity.
Qed.

Lemma vm_on : forall r e L, r_tron r = false -> pure e = true -> (0 <= L)%Z ->
  code_at r (r_pc r) (OpLiteral (VInt L) :: postfix e ++ [OpOn]) -> r_slen r + 1 + lenN (postfix e) <= MAX_POOL ->
  vm_res r (S (length (postfix e)) + 1) (bind (eval_pure O (r_vars r) e) on_sel)
    (fun sel r' => keeps r r' /\
       r_pc r' = r_pc r + 2 + lenN (postfix e) + Z.to_N (if ((sel =? 0) || (L <? sel))%Z then L else sel - 1)).
Proof.
  intros r e L Htr Hp HL Hat Hs.
  change (OpLiteral (VInt L) :: postfix e ++ [OpOn]) with ((OpLiteral (VInt L) :: postfix e) ++ [OpOn]) in Hat.
  apply code_at_app in Hat. destruct Hat as [Hat1 Hat2].
  assert (Hrun : runs O false (OpLiteral (VInt L) :: postfix e) r (eval_pure O (r_vars r) e) (pushed (pushed r (VInt L)))).
  { unfold runs. cbn [run_ops exec_op]. unfold rbind. rewrite push_ok by lia.
    exact (run_postfix O false e (pushed r (VInt L)) Hp ltac:(cbn; lia)). }
  pose proof (loop_runs O _ 1 false r _ _ (postfix_expr_ops e Hp : forallb expr_op (OpLiteral (VInt L) :: postfix e) = true)
                Htr Hat1 Hrun) as H.
  destruct (eval_pure O (r_vars r) e) as [v | er | |]; cbn [bind]; [| exact H | exact I | exact I].
  set (r1 := set_pc _ _) in H. pose proof (on_step r1 v L (r_stack r) Htr (code_at_head _ _ _ _ Hat2) eq_refl HL) as Hon.
  unfold vm_res in *. change (S (length (postfix e))) with (length (OpLiteral (VInt L) :: postfix e)). rewrite H.
  destruct (on_sel v) as [sel | er | |]; [| exact Hon | exact I | exact I].
  destruct Hon as (r' & E & ->). eexists. split; [exact E |]. split; [unfold keeps; cbn; repeat split; lia |].
  cbn [set_pc r_pc r1]. unfold lenN. cbn [length]. lia.
Qed.

Definition text_of (v : val) : str := match v with VStr t => t | _ => fmt_val v ++ [c_space] end.

Lemma vm_print_item : forall r e, r_tron r = false -> pure e = true -> code_at r (r_pc r) (postfix e ++ [OpPrint]) ->
  r_slen r + lenN (postfix e) <= MAX_POOL ->
  match eval_pure O (r_vars r) e with
  | Ok v => exec_loop_x O (length (postfix e) + 1) false r
            = (set_pc (set_col r (advance_col (r_col r) (text_of v))) (r_pc r + lenN (postfix e) + 1), Ok (Some (EvPrint (text_of v))))
  | Err er => snd (exec_loop_x O (length (postfix e) + 1) false r) = Err er
  | _ => True
  end.
Proof.
  intros r e Htr Hp Hat Hs. apply code_at_app in Hat. destruct Hat as [Hat1 Hat2].
  pose proof (loop_runs O (postfix e) 1 false r _ _ (postfix_expr_ops e Hp) Htr Hat1 (run_postfix O false e r Hp Hs)) as H.
  destruct (eval_pure O (r_vars r) e) as [v | er | |]; [| exact H | exact I | exact I].
  rewrite H. set (r1 := set_pc _ _). rewrite (loop_step O 0 false r1 OpPrint Htr (code_at_head _ _ _ _ Hat2)).
  cbn [exec_op]. unfold rbind, do_print, rbind, pop, rmod, rret.
  cbn [r1 set_pc pushed set_stack_len r_stack r_slen r_pc r_col set_col]. fold (text_of v).
  replace (r_slen r + 1 - 1) with (r_slen r) by lia. destruct r; reflexivity.
Qed.

End VMStmts.

Section SemSide.
Variable O : oracle.
Variable srcl : program_t.

Lemma sem_exec_let : forall fuel line c cv i e rest s, pure e = true -> (depth e < fuel)%nat -> s_locals s = [] ->
  exec O srcl fuel line (SLet c (VUnary cv i) e) rest s =
  sem_res s line (bind (eval_pure O (s_vars s) e) (var_store (s_vars s) (ident_str i))) (fun vs => (with_vars s vs, Go rest)).
Proof.
  intros fuel line c cv i e rest s Hp Hd Hloc. cbn [exec]. unfold sbind. rewrite (sem_eval_pure O fuel e s line Hp Hd Hloc).
  destruct (eval_pure O (s_vars s) e) as [v | er | |]; cbn [of_res]; try reflexivity.
  unfold assign, store_var. cbn [bind]. destruct (var_store (s_vars s) (ident_str i) v) as [vs | er | |]; reflexivity.
Qed.

Definition jump_to (s : sst) (n : N) : sst * step_result :=
  match line_stmts srcl n with
  | Some l => (s, Go (l, n))
  | None => (s, Halt HUndefined)
  end.

Lemma sem_exec_goto : forall fuel line c ce b rest s,
  exec O srcl fuel line (SGoto c (ESng ce b)) rest s = jump_to s (Z.to_N (f32_to_Z b)).
Proof. intros. unfold jump_to. cbn [exec goto_line]. destruct (line_stmts srcl (Z.to_N (f32_to_Z b))); reflexivity. Qed.

Lemma sem_exec_on : forall fuel line c e (ts : list tgt) rest s, pure e = true -> (depth e < fuel)%nat -> s_locals s = [] ->
  exec O srcl fuel line (SOnGoto c e (map tgt_expr ts)) rest s =
  sem_res s line (bind (eval_pure O (s_vars s) e) on_sel)
    (fun sel => if ((sel =? 0) || (Z.of_N (lenN ts) <? sel))%Z then (s, Go rest)
                else match nthN ts (Z.to_N (sel - 1)) with
                     | Some t => jump_to s (Z.to_N (f32_to_Z (snd (fst t))))
                     | None => (s, Halt HUndefined)
                     end).
Proof.
  intros fuel line c e ts rest s Hp Hd Hloc. cbn [exec]. unfold sbind at 1. rewrite (sem_eval_pure O fuel e s line Hp Hd Hloc).
  destruct (eval_pure O (s_vars s) e) as [v | er | |]; cbn [of_res]; try reflexivity.
  unfold sbind at 1. unfold slift. cbn [bind]. unfold on_sel. destruct (to_i16 v) as [sel | er | |]; cbn [of_res bind]; try reflexivity.
  destruct (sel <? 0)%Z; [reflexivity |]. cbn [sem_res].
  assert (Hl : lenN (map tgt_expr ts) = lenN ts) by (unfold lenN; rewrite map_length; reflexivity). rewrite Hl.
  destruct ((sel =? 0) || (Z.of_N (lenN ts) <? sel))%Z; [reflexivity |].
  unfold nthN. rewrite nth_error_map. destruct (nth_error ts (N.to_nat (Z.to_N (sel - 1)))) as [t |]; cbn [option_map]; [| reflexivity].
  destruct t as [[ct bt] nt]. unfold jump_to. cbn [tgt_expr goto_line fst snd].
  destruct (line_stmts srcl (Z.to_N (f32_to_Z bt))); reflexivity.
Qed.

Lemma sem_exec_end : forall fuel line c rest s, exec O srcl fuel line (SEnd c) rest s = (s, Halt HEnd).
Proof. reflexivity. Qed.

Lemma find_split {A} (f : A -> bool) : forall l x, find f l = Some x -> exists l1 l2, l = l1 ++ x :: l2 /\ f x = true.
Proof.
  induction l as [| y r IH]; intros x H; [discriminate |]. cbn [find] in H. destruct (f y) eqn:Ey.
  - injection H as <-. exists [], r. split; [reflexivity | exact Ey].
  - destruct (IH x H) as (l1 & l2 & -> & Hx). exists (y :: l1), l2. split; [reflexivity | exact Hx].
Qed.

Lemma find_skip {A} (f : A -> bool) : forall l1 l2, (forall x, In x l1 -> f x = false) -> find f (l1 ++ l2) = find f l2.
Proof.
  induction l1 as [| y r IH]; intros l2 H; [reflexivity |]. cbn [app find]. rewrite (H y (or_introl eq_refl)). apply IH.
  intros x Hx. apply H. right. exact Hx.
Qed.

Lemma line_stmts_found : forall n l, line_stmts srcl n = Some l -> exists sb ss sa, srcl = sb ++ (n, ss) :: sa /\ l = tag_line n ss.
Proof.
  intros n l H. unfold line_stmts in H. destruct (find (fun e => fst e =? n) srcl) as [[n0 ss] |] eqn:Ef; [| discriminate].
  injection H as <-. destruct (find_split _ _ _ Ef) as (l1 & l2 & E & Hn). cbn [fst] in Hn. apply N.eqb_eq in Hn. subst n0.
  exists l1, ss, l2. split; [exact E | reflexivity].
Qed.

Fixpoint sem_print_items (line : N) (rest : kont) (l : list expr) : SM step_result :=
  match l with
  | [] => sret (Go rest)
  | x :: r =>
      sdo v <~ eval O 200 line x ;;
      sdo _ <~ (fun st => (print_text st (match v with VStr t => t | _ => fmt_val v ++ [c_space] end), EvOk tt)) ;;
      sem_print_items line rest r
  end.

Definition sem_step (line : N) (x : sst * ev step_result) : sst * step_result :=
  match x with
  | (st', EvOk r) => (st', r)
  | (st', EvErr c) => (st', Halt (HError c line))
  | (st', EvUndef) => (st', Halt HUndefined)
  end.

Lemma sem_exec_print : forall line c es rest s,
  exec O srcl 200 line (SPrint c es) rest s = sem_step line (sem_print_items line rest es s).
Proof.
  intros line c es rest s. cbn [exec].
  assert (E : forall l, (fix go (l : list expr) : SM step_result :=
                           match l with
                           | [] => sret (Go rest)
                           | x :: r =>
                               sdo v <~ eval O 200 line x ;;
                               sdo _ <~ (fun st => (print_text st (match v with VStr t => t | _ => fmt_val v ++ [c_space] end), EvOk tt)) ;;
                               go r
                           end) l = sem_print_items line rest l).
  { induction l as [| x r IH]; [reflexivity |]. cbn [sem_print_items]. rewrite <- IH. reflexivity. }
  rewrite E. reflexivity.
Qed.

Lemma sem_print_item : forall line rest e es s, pure e = true -> (depth e < 200)%nat -> s_locals s = [] ->
  sem_print_items line rest (e :: es) s =
  match eval_pure O (s_vars s) e with
  | Ok v => sem_print_items line rest es (print_text s (text_of v))
  | Err er => (s, EvErr (ecode er))
  | _ => (s, EvUndef)
  end.
Proof.
  intros line rest e es s Hp Hd Hloc. cbn [sem_print_items]. unfold sbind at 1. rewrite (sem_eval_pure O 200 e s line Hp Hd Hloc).
  destruct (eval_pure O (s_vars s) e); reflexivity.
Qed.

End SemSide.

(* the statements of the fragment as the reference semantics needs them: expressions shallower than its evaluation
   budget, and branch targets whose literal denotes the same line in the reference reading (truncate) as in the
   compiler's reading (TryFrom<Val> for LineNumber) *)
Definition tgt_sem (t : tgt) : Prop := Z.to_N (f32_to_Z (snd (fst t))) = snd t.

Inductive gstmt : stmt -> piece -> Prop :=
| gs_let : forall c cv i e, pure e = true -> builtin_arity (ident_str i) = None -> (depth e < 200)%nat ->
    gstmt (SLet c (VUnary cv i) e) (mkPiece (let_code i e) [] 0)
| gs_goto : forall c ce b n, target_is b n -> Z.to_N (f32_to_Z b) = n ->
    gstmt (SGoto c (ESng ce b)) (mkPiece [OpJump 0] [(0, (ce, Z.of_N n))] 0)
| gs_on : forall c e (ts : list tgt), pure e = true -> (depth e < 200)%nat -> Forall tgt_ok ts -> Forall tgt_sem ts -> lenN ts <= 32767 ->
    gstmt (SOnGoto c e (map tgt_expr ts)) (mkPiece (on_code e ts) (jump_refs (2 + lenN (postfix e)) ts) (-1))
| gs_end : forall c, gstmt (SEnd c) (mkPiece [OpEnd] [] 0)
| gs_print : forall c es, es <> [] -> forallb pure es = true -> Forall (fun e => (depth e < 200)%nat) es ->
    gstmt (SPrint c es) (mkPiece (print_code es) [] 0).

Lemma gstmt_fstmt s p : gstmt s p -> fstmt s p.
Proof. intros H. destruct H; constructor; assumption. Qed.

(* only END ends in END *)
Lemma gstmt_last s p : gstmt s p -> (forall c, s <> SEnd c) -> exists code x, pc_ops p = code ++ [x] /\ x <> OpEnd.
Proof.
  intros H Hne. destruct H as [c cv i e _ _ _ | c ce b n _ _ | c e ts _ _ _ _ _ | c | c es Hes _ _]; cbn [pc_ops].
  - exists (postfix e), (OpPop (ident_str i)). split; [reflexivity | discriminate].
  - exists [], (OpJump 0). split; [reflexivity | discriminate].
  - unfold on_code. destruct ts as [| t ts'].
    + exists (OpLiteral (VInt (Z.of_N (lenN (@nil tgt)))) :: postfix e), OpOn. cbn [length repeat]. rewrite app_nil_r. split; [reflexivity | discriminate].
    + exists (OpLiteral (VInt (Z.of_N (lenN (t :: ts')))) :: postfix e ++ [OpOn] ++ repeat (OpJump 0) (length ts')), (OpJump 0).
      cbn [length repeat]. rewrite repeat_cons. split; [| discriminate]. cbn [app]. rewrite <- !app_assoc. reflexivity.
  - destruct (Hne c eq_refl).
  - destruct es as [| e0 es'] using rev_ind; [contradiction |].
    exists (print_code es' ++ postfix e0), OpPrint. rewrite print_code_app. unfold print_code at 2. cbn [flat_map]. rewrite app_nil_r, <- app_assoc.
    split; [reflexivity | discriminate].
Qed.

Definition lmatch (l : N * list stmt) (pl : pline) : Prop := fst l = fst pl /\ Forall2 gstmt (snd l) (snd pl).

Lemma Forall2_impl {A B} (R R' : A -> B -> Prop) : (forall a b, R a b -> R' a b) -> forall l l', Forall2 R l l' -> Forall2 R' l l'.
Proof. intros H l l' H2. induction H2; constructor; auto. Qed.

Lemma Forall2_Forall_r {A B} (R : A -> B -> Prop) (P : B -> Prop) : (forall a b, R a b -> P b) -> forall l l', Forall2 R l l' -> Forall P l'.
Proof. intros H l l' H2. induction H2; constructor; eauto. Qed.

Lemma lmatch_flayout : forall srcl pls, Forall2 lmatch srcl pls ->
  Forall2 (fun l pl => fst l = fst pl /\ Forall2 fstmt (snd l) (snd pl)) srcl pls.
Proof. intros srcl pls. apply Forall2_impl. intros l pl [E Hf]. split; [exact E | exact (Forall2_impl _ _ gstmt_fstmt _ _ Hf)]. Qed.

Lemma lmatch_good : forall srcl pls, Forall2 lmatch srcl pls -> good_prog pls.
Proof.
  intros srcl pls. apply Forall2_Forall_r. intros l pl [_ Hf]. revert Hf. apply Forall2_Forall_r.
  intros s p Hs. exists s. exact (gstmt_fstmt s p Hs).
Qed.

Lemma prog_ops_single n pd : prog_ops [(n, pd)] = flat_map pc_ops pd.
Proof. unfold prog_ops. cbn [flat_map]. unfold line_ops. cbn [snd]. apply app_nil_r. Qed.

Lemma last_is_end_snoc a x : last_is_end (a ++ [x]) = true -> x = OpEnd.
Proof. unfold last_is_end. rewrite rev_app_distr. cbn. destruct x; try discriminate. reflexivity. Qed.

(* a piece whose code does not end in END is not the last one: behind it the program counter is still inside the program *)
Lemma next_lt pls a p c x : piece_at pls a p -> last_is_end (prog_ops pls) = true -> pc_ops p = c ++ [x] -> x <> OpEnd ->
  a + lenN (pc_ops p) < lenN (prog_ops pls).
Proof.
  intros Hp Hend Ep Hx. destruct (piece_at_split pls a p Hp) as (front & [| y back] & E & <-); rewrite E in Hend |- *.
  - exfalso. rewrite app_nil_r, Ep, app_assoc in Hend. apply last_is_end_snoc in Hend. contradiction.
  - rewrite !lenN_app. unfold lenN. cbn [length]. lia.
Qed.

Lemma jump_refs_nth : forall (ts : list tgt) base j t, nth_error ts j = Some t ->
  In (base + N.of_nat j, (fst (fst t), Z.of_N (snd t))) (jump_refs base ts).
Proof.
  induction ts as [| t0 r IH]; intros base j t H; [destruct j; discriminate |]. destruct j as [| j]; cbn [nth_error] in H.
  - injection H as ->. left. f_equal. lia.
  - right. specialize (IH (base + 1) j t H). replace (base + N.of_nat (S j)) with (base + 1 + N.of_nat j) by lia. exact IH.
Qed.

Section Sim.
Variable O : oracle.
Variable srcl : program_t.
Variable pls : list pline.
Variables lo sl : N.
Hypothesis Hmatch : Forall2 lmatch srcl pls.
Hypothesis Hasc : ascending pls lo.
Hypothesis Hend : last_is_end (prog_ops pls) = true.
Hypothesis Hne : last_nonempty pls.
Hypothesis Hfit : sl + lenN (prog_ops pls) <= MAX_POOL.

Let Hgood : good_prog pls := lmatch_good srcl pls Hmatch.

(* where the two machines stand: the reference semantics before the statements sr of line n, the VM at the address of
   the first of them *)
Definition at_pos (k : kont) (pc : N) : Prop :=
  exists sb n sd sr sa pb pd pr pa,
    srcl = sb ++ (n, sd ++ sr) :: sa /\ pls = pb ++ (n, pd ++ pr) :: pa /\
    Forall2 lmatch sb pb /\ Forall2 gstmt sd pd /\ Forall2 gstmt sr pr /\ Forall2 lmatch sa pa /\
    k = (tag_line n sr, n) /\ pc = lenN (prog_ops pb) + lenN (flat_map pc_ops pd).

Definition sfacts (st : sst) (r : rt) : Prop :=
  s_vars st = r_vars r /\ s_locals st = [] /\ s_tron st = false /\ r_tron r = false /\ r_slen r = sl /\ loaded pls r
  /\ s_col st = r_col r.

Definition Rel (k : kont) (st : sst) (r : rt) : Prop :=
  at_pos k (r_pc r) /\ r_pc r < lenN (prog_ops pls) /\ sfacts st r.

Lemma at_pos_intro : forall sb n sd sr sa pb pd pr pa,
  srcl = sb ++ (n, sd ++ sr) :: sa -> pls = pb ++ (n, pd ++ pr) :: pa ->
  Forall2 lmatch sb pb -> Forall2 gstmt sd pd -> Forall2 gstmt sr pr -> Forall2 lmatch sa pa ->
  at_pos (tag_line n sr, n) (lenN (prog_ops pb) + lenN (flat_map pc_ops pd)).
Proof. intros sb n sd sr sa pb pd pr pa Es Ep Hb Hd Hr Ha. exists sb, n, sd, sr, sa, pb, pd, pr, pa. repeat split; assumption. Qed.

Lemma at_pos_stmt : forall ln s (more : list sline) n pc, at_pos ((ln, s) :: more, n) pc ->
  ln = n /\ exists p, gstmt s p /\ piece_at pls pc p /\ at_pos (more, n) (pc + lenN (pc_ops p)).
Proof.
  intros ln s more n pc (sb & n0 & sd & sr & sa & pb & pd & pr & pa & Es & Ep & Hb & Hd & Hr & Ha & Ek & ->).
  injection Ek as Et <-. destruct Hr as [| s0 p sr pr Hs Hr]; [discriminate |]. injection Et as -> -> ->.
  split; [reflexivity |]. exists p. split; [exact Hs |]. split; [exists pb, n, pd, pr, pa; split; [exact Ep | reflexivity] |].
  replace (lenN (prog_ops pb) + lenN (flat_map pc_ops pd) + lenN (pc_ops p)) with (lenN (prog_ops pb) + lenN (flat_map pc_ops (pd ++ [p])))
    by (rewrite flat_map_app, lenN_app; cbn [flat_map]; rewrite app_nil_r; lia).
  apply (at_pos_intro sb n (sd ++ [s0]) sr sa pb (pd ++ [p]) pr pa); try assumption; try (rewrite <- app_assoc; assumption).
  apply Forall2_app; [exact Hd | constructor; [exact Hs | constructor]].
Qed.

Lemma split_match : forall sb n ss sa, srcl = sb ++ (n, ss) :: sa ->
  exists pb ps pa, pls = pb ++ (n, ps) :: pa /\ Forall2 lmatch sb pb /\ Forall2 gstmt ss ps /\ Forall2 lmatch sa pa.
Proof.
  intros sb n ss sa E. pose proof Hmatch as H. rewrite E in H. apply Forall2_app_inv_l in H.
  destruct H as (pb & rest & Hb & Hr & Ep). inversion Hr as [| x [n' ps] xs pa [En Hs] Ha]; subst. cbn [fst snd] in *. subst n'.
  exists pb, ps, pa. repeat split; assumption.
Qed.

Lemma Rel_line_start : forall sb n ss sa pb ps pa st r, srcl = sb ++ (n, ss) :: sa -> pls = pb ++ (n, ps) :: pa ->
  Forall2 lmatch sb pb -> Forall2 gstmt ss ps -> Forall2 lmatch sa pa ->
  r_pc r = lenN (prog_ops pb) -> sfacts st r -> Rel (tag_line n ss, n) st r.
Proof.
  intros sb n ss sa pb ps pa st r Es Ep Hb Hs Ha Hpc Hf. split; [| split; [| exact Hf]]; rewrite Hpc; [| exact (start_lt pls pb n ps pa Ep Hne)].
  rewrite <- (N.add_0_r (lenN (prog_ops pb))). exact (at_pos_intro sb n [] ss sa pb [] ps pa Es Ep Hb (Forall2_nil _) Hs Ha).
Qed.

Lemma Rel_advance : forall s p k pc, gstmt s p -> piece_at pls pc p -> at_pos k (pc + lenN (pc_ops p)) -> (forall c, s <> SEnd c) ->
  forall st2 r2, r_pc r2 = pc + lenN (pc_ops p) -> sfacts st2 r2 -> Rel k st2 r2.
Proof.
  intros s p k pc Hs Hp Hnext Hnoend st2 r2 Hpc Hf. destruct (gstmt_last s p Hs Hnoend) as (c & x & Ec & Hx).
  split; [| split; [| exact Hf]]; rewrite Hpc; [exact Hnext | exact (next_lt pls pc p c x Hp Hend Ec Hx)].
Qed.

Lemma piece_fits : forall a p, piece_at pls a p -> sl + lenN (pc_ops p) <= MAX_POOL.
Proof.
  intros a p Hp. destruct (piece_at_split pls a p Hp) as (front & back & E & _). pose proof Hfit as H. rewrite E, !lenN_app in H. lia.
Qed.

(* a stretch of VM execution and what it prints: budget-bounded calls of the fetch loop, each ending because the budget
   ran out or because a PRINT returned its text *)
Inductive vm_steps : rt -> list str -> rt -> Prop :=
| vs_refl : forall r, vm_steps r [] r
| vs_quiet : forall r n r1 outs r', exec_loop_x O n false r = (r1, Ok None) -> vm_steps r1 outs r' -> vm_steps r outs r'
| vs_print : forall r n r1 t outs r', exec_loop_x O n false r = (r1, Ok (Some (EvPrint t))) -> vm_steps r1 outs r' -> vm_steps r (t :: outs) r'.

Lemma vm_steps_trans : forall r o1 r1 o2 r2, vm_steps r o1 r1 -> vm_steps r1 o2 r2 -> vm_steps r (o1 ++ o2) r2.
Proof.
  intros r o1 r1 o2 r2 H. induction H as [r | r n ra outs r' E _ IH | r n ra t outs r' E _ IH]; intros H2; cbn [app].
  - exact H2.
  - exact (vs_quiet r n ra _ r2 E (IH H2)).
  - exact (vs_print r n ra t _ r2 E (IH H2)).
Qed.

Lemma vm_steps_one r n r1 : exec_loop_x O n false r = (r1, Ok None) -> vm_steps r [] r1.
Proof. intros E. exact (vs_quiet r n r1 [] r1 E (vs_refl r1)). Qed.

(* the texts the reference semantics printed between two of its states (its output list is newest first) *)
Definition printed (st st2 : sst) (outs : list str) : Prop := s_out st2 = rev (map SePrint outs) ++ s_out st.

Lemma printed_nil st : printed st st []. Proof. reflexivity. Qed.
Lemma printed_trans st st1 st2 o1 o2 : printed st st1 o1 -> printed st1 st2 o2 -> printed st st2 (o1 ++ o2).
Proof. unfold printed. intros H1 H2. rewrite H2, H1, map_app, rev_app_distr, app_assoc. reflexivity. Qed.

Definition outcome (st : sst) (res : sst * step_result) (r : rt) : Prop :=
  match res with
  | (st2, Go k') => exists outs r2, vm_steps r outs r2 /\ printed st st2 outs /\ Rel k' st2 r2
  | (st2, Halt HEnd) => exists outs r1 m r2, vm_steps r outs r1 /\ printed st st2 outs
                          /\ exec_loop_x O m false r1 = (r2, Ok (Some EvStopped)) /\ r_vars r2 = s_vars st2
  | (st2, Halt (HError c _)) => exists outs r1 m er, vm_steps r outs r1 /\ printed st st2 outs
                                  /\ snd (exec_loop_x O m false r1) = Err er /\ ecode er = c
  | _ => True
  end.

(* how a run of the VM must end to match the reference semantics: the same texts printed, in the same order, then the
   same end *)
Definition final (st : sst) (res : sst * halt) (r : rt) : Prop :=
  match res with
  | (st', HEnd) => exists outs r1 m r', vm_steps r outs r1 /\ printed st st' outs
                     /\ exec_loop_x O m false r1 = (r', Ok (Some EvStopped)) /\ r_vars r' = s_vars st'
  | (st', HError c _) => exists outs r1 m er, vm_steps r outs r1 /\ printed st st' outs
                           /\ snd (exec_loop_x O m false r1) = Err er /\ ecode er = c
  | _ => True
  end.

Lemma steps_after st st1 st2 r r1 r2 o1 o2 (C : Prop) : vm_steps r o1 r1 -> printed st st1 o1 ->
  vm_steps r1 o2 r2 /\ printed st1 st2 o2 /\ C -> vm_steps r (o1 ++ o2) r2 /\ printed st st2 (o1 ++ o2) /\ C.
Proof.
  intros Hrun Hp (Hrun' & Hp' & HC). split; [exact (vm_steps_trans _ _ _ _ _ Hrun Hrun') |]. split; [exact (printed_trans _ _ _ _ _ Hp Hp') | exact HC].
Qed.

Lemma outcome_after st st1 r r1 o1 res : vm_steps r o1 r1 -> printed st st1 o1 -> outcome st1 res r1 -> outcome st res r.
Proof.
  intros Hrun Hp1 H. destruct res as [st' [k' | [| c ln | | |]]]; cbn [outcome] in *; try exact I.
  - destruct H as (o2 & r2 & H). exists (o1 ++ o2), r2. exact (steps_after _ _ _ _ _ _ _ _ _ Hrun Hp1 H).
  - destruct H as (o2 & r2 & m & r' & H). exists (o1 ++ o2), r2, m, r'. exact (steps_after _ _ _ _ _ _ _ _ _ Hrun Hp1 H).
  - destruct H as (o2 & r2 & m & er & H). exists (o1 ++ o2), r2, m, er. exact (steps_after _ _ _ _ _ _ _ _ _ Hrun Hp1 H).
Qed.

Lemma final_after st st1 r r1 o1 res : vm_steps r o1 r1 -> printed st st1 o1 -> final st1 res r1 -> final st res r.
Proof. destruct res as [st' h]. exact (outcome_after st st1 r r1 o1 (st', Halt h)). Qed.

Lemma outcome_error st r m er line : snd (exec_loop_x O m false r) = Err er -> outcome st (st, Halt (HError (ecode er) line)) r.
Proof. intros H. exists [], r, m, er. split; [constructor |]. split; [apply printed_nil |]. split; [exact H | reflexivity]. Qed.

Lemma outcome_go st st2 r k : s_out st2 = s_out st -> Rel k st2 r -> outcome st (st2, Go k) r.
Proof. intros Ho HR. exists [], r. split; [constructor |]. split; [exact Ho | exact HR]. Qed.

Lemma outcome_res {A} st r m line (x : res A) Q f :
  vm_res O r m x Q -> (forall a r', Q a r' -> outcome st (f a) r') -> outcome st (sem_res st line x f) r.
Proof.
  intros Hvm Hf. destruct x as [a | er | |]; cbn [sem_res vm_res] in *; [| exact (outcome_error st r m er line Hvm) | exact I | exact I].
  destruct Hvm as (r' & E & HQ). exact (outcome_after st st r r' [] _ (vm_steps_one r m r' E) (printed_nil st) (Hf a r' HQ)).
Qed.

Lemma sfacts_keeps st r r' : sfacts st r -> keeps r r' -> sfacts st r'.
Proof.
  intros (Hv & Hl & Ht & Hrt & Hs & Hld & Hc) (Kp & Kt & Kv & Kst & Ksl & Kc). unfold sfacts. rewrite Kv, Kt, Ksl, Kc. repeat split; try assumption.
  unfold loaded. rewrite Kp. exact Hld.
Qed.

Lemma sfacts_pc st r a : sfacts st r -> sfacts st (set_pc r a).
Proof. intros H. apply (sfacts_keeps st r); [exact H |]. unfold keeps. cbn. repeat split. Qed.

Lemma jump_taken : forall a p k c n' st r, piece_at pls a p -> In (k, (c, Z.of_N n')) (pc_refs p) -> r_pc r = a + k -> sfacts st r ->
  outcome st (jump_to srcl st n') r.
Proof.
  intros a p k c n' st r Hp Hin Hpc Hf. unfold jump_to. destruct (line_stmts srcl n') as [l |] eqn:Hl; [| exact I].
  destruct (line_stmts_found srcl n' l Hl) as (sb & ss & sa & E & ->).
  destruct (split_match sb n' ss sa E) as (pb' & ps' & pa' & Ep' & Hb & Hs & Ha). pose proof Hf as (_ & _ & _ & Hrt & _ & Hld & _).
  pose proof (loaded_jump pls Hgood r lo a p k c pb' n' ps' pa' Hld Hasc Hp Ep' Hin) as Hj. rewrite <- Hpc in Hj.
  exists [], (set_pc r (lenN (prog_ops pb'))). split; [exact (vm_steps_one r 1 _ (loop_jump O r _ Hrt Hj)) |]. split; [reflexivity |].
  apply (Rel_line_start sb n' ss sa pb' ps' pa' st _ E Ep' Hb Hs Ha); [reflexivity | apply sfacts_pc; exact Hf].
Qed.

Lemma print_items : forall es st r rest line,
  forallb pure es = true -> Forall (fun e => (depth e < 200)%nat) es -> sfacts st r ->
  code_at r (r_pc r) (print_code es) -> r_slen r + lenN (print_code es) <= MAX_POOL ->
  (forall st2 r2, r_pc r2 = r_pc r + lenN (print_code es) -> sfacts st2 r2 -> Rel rest st2 r2) ->
  outcome st (sem_step line (sem_print_items O line rest es st)) r.
Proof.
  induction es as [| e es' IH]; intros st r rest line Hp Hd Hf Hat Hs Hadv.
  - apply outcome_go; [reflexivity |]. apply Hadv; [symmetry; apply N.add_0_r | exact Hf].
  - pose proof Hf as (Hv & Hloc & Hst & Htr & Hsl & Hld & Hcol).
    cbn [forallb] in Hp. apply andb_prop in Hp. destruct Hp as [Hpe Hpr]. inversion Hd as [| ? ? Hde Hdr]; subst.
    change (print_code (e :: es')) with ((postfix e ++ [OpPrint]) ++ print_code es') in *.
    apply code_at_app in Hat. destruct Hat as [Hat1 Hat2]. rewrite !lenN_app, lenN_one in Hs, Hadv. rewrite lenN_app, lenN_one in Hat2.
    pose proof (vm_print_item O r e Htr Hpe Hat1 ltac:(lia)) as Hvm.
    rewrite (sem_print_item O line rest e es' st Hpe Hde Hloc), Hv.
    destruct (eval_pure O (r_vars r) e) as [v | er | |]; [| exact (outcome_error st r _ er line Hvm) | exact I | exact I].
    set (r1 := set_pc (set_col r (advance_col (r_col r) (text_of v))) (r_pc r + lenN (postfix e) + 1)) in *.
    apply (outcome_after st (print_text st (text_of v)) r r1 [text_of v] _ (vs_print r _ r1 _ [] r1 Hvm (vs_refl r1)) eq_refl).
    apply IH; [exact Hpr | exact Hdr | | | unfold r1; cbn; lia |].
    + unfold sfacts, r1, print_text. cbn [s_vars s_locals s_tron s_col r_vars r_tron r_slen r_col set_pc set_col]. rewrite Hcol. repeat split; assumption.
    + intros i op Hi. rewrite <- (Hat2 i op Hi). unfold r1. cbn [r_pc set_pc r_prog set_col]. f_equal. lia.
    + intros st2 r2 Hpc2. apply Hadv. rewrite Hpc2. unfold r1. cbn [r_pc set_pc]. lia.
Qed.

Theorem stmt_step : forall n s (more : list sline) st r, at_pos ((n, s) :: more, n) (r_pc r) -> sfacts st r ->
  outcome st (exec O srcl 200 n s (more, n) st) r.
Proof.
  intros n s more st r Hpos Hf. destruct (at_pos_stmt n s more n (r_pc r) Hpos) as (_ & p & Hs & Hp & Hnext).
  pose proof Hf as (Hv & Hloc & Hst & Hrt & Hsl & Hld & Hcol).
  pose proof (piece_fits (r_pc r) p Hp) as Hpf.
  pose proof (fun code post => loaded_plain pls Hgood r (r_pc r) p code post Hld Hp) as Hcode.
  pose proof (Rel_advance s p (more, n) (r_pc r) Hs Hp Hnext) as Hadv.
  destruct Hs as [c cv i e Hpure Hbi Hdep | c ce b n' Htgt Hsem | c e ts Hpure Hdep Hok Hsem Hlen | c | c es Hne_es Hpure Hdeps];
    cbn [pc_ops] in Hpf, Hcode, Hadv.
  - pose proof (Hcode (let_code i e) [] (eq_sym (app_nil_r _)) (postfix_no_jump e (OpPop (ident_str i)) Hpure ltac:(discriminate))) as Hat.
    assert (Hstk : r_slen r + lenN (postfix e) <= MAX_POOL) by (unfold let_code in Hpf; rewrite lenN_app in Hpf; lia).
    rewrite (sem_exec_let O srcl 200 n c cv i e _ st Hpure Hdep Hloc), Hv.
    apply (outcome_res st r _ n _ _ _ (vm_runs O _ r _ _ (let_code_ops i e Hpure) Hrt Hat (run_let O false i e r Hpure Hstk))).
    intros vs r' ->. apply outcome_go; [reflexivity |].
    apply Hadv; [intros c0; discriminate | reflexivity |]. unfold sfacts. cbn. repeat split; assumption.
  - rewrite sem_exec_goto, Hsem. exact (jump_taken (r_pc r) _ 0 ce n' st r Hp (or_introl eq_refl) (eq_sym (N.add_0_r _)) Hf).
  - assert (Hat : code_at r (r_pc r) (OpLiteral (VInt (Z.of_N (lenN ts))) :: postfix e ++ [OpOn])).
    { apply (Hcode _ _ (on_code_split e ts)). intros [E | Hin]; [discriminate | exact (postfix_no_jump e OpOn Hpure ltac:(discriminate) Hin)]. }
    rewrite lenN_on_code in Hpf, Hadv.
    rewrite (sem_exec_on O srcl 200 n c e ts _ st Hpure Hdep Hloc), Hv.
    apply (outcome_res st r _ n _ _ _ (vm_on O r e (Z.of_N (lenN ts)) Hrt Hpure ltac:(lia) Hat ltac:(lia))).
    intros sel r' (Hk & Hpc'). pose proof (sfacts_keeps st r r' Hf Hk) as Hf'.
    destruct ((sel =? 0) || (Z.of_N (lenN ts) <? sel))%Z eqn:Econd.
    + apply outcome_go; [reflexivity |]. apply Hadv; [intros c0; discriminate | rewrite Hpc'; lia | exact Hf'].
    + apply Bool.orb_false_iff in Econd. destruct Econd as [E0 Egt]. apply Z.eqb_neq in E0. apply Z.ltb_ge in Egt.
      unfold nthN. destruct (nth_error ts (N.to_nat (Z.to_N (sel - 1)))) as [t |] eqn:Et; [| exact I].
      rewrite (proj1 (Forall_forall _ _) Hsem t (nth_error_In _ _ Et)).
      exact (jump_taken (r_pc r) _ _ _ (snd t) st r' Hp (jump_refs_nth ts (2 + lenN (postfix e)) _ t Et) ltac:(rewrite Hpc'; lia) Hf').
  - rewrite sem_exec_end.
    pose proof (code_at_head _ _ _ _ (Hcode [OpEnd] [] eq_refl ltac:(intros [E | []]; discriminate))) as Hop.
    exists [], r, 1%nat. eexists. split; [constructor |]. split; [reflexivity |].
    rewrite (loop_step O 0 false r OpEnd Hrt Hop). cbn [exec_op]. unfold rbind, do_end, rret. split; [reflexivity |].
    rewrite Hv. cbn [set_pc r_pc r_entry].
    destruct (r_pc r + 1 <? r_entry r); cbn [r_pc r_entry set_cont_pc set_state set_cont];
      match goal with |- context [if ?b then _ else _] => destruct b end; reflexivity.
  - assert (Hat : code_at r (r_pc r) (print_code es)).
    { apply (Hcode _ [] (eq_sym (app_nil_r _))). unfold print_code. intros Hin. apply in_flat_map in Hin. destruct Hin as (e0 & He0 & Hin).
      exact (postfix_no_jump e0 OpPrint (proj1 (forallb_forall _ _) Hpure e0 He0) ltac:(discriminate) Hin). }
    rewrite sem_exec_print.
    exact (print_items es st r (more, n) n Hpure Hdeps Hf Hat ltac:(lia) (Hadv ltac:(intros c0; discriminate))).
Qed.

Lemma Forall2_In_l {A B} (R : A -> B -> Prop) : forall l l', Forall2 R l l' -> forall x, In x l -> exists y, In y l' /\ R x y.
Proof.
  induction 1 as [| a b l l' Hab _ IH]; intros x Hin; [destruct Hin |]. destruct Hin as [<- | Hin].
  - exists b. split; [left; reflexivity | exact Hab].
  - destruct (IH x Hin) as (y & Hy & Hxy). exists y. split; [right; exact Hy | exact Hxy].
Qed.

(* from the end of a line to the first statement of the next the VM has nothing to execute *)
Lemma line_step : forall n st r, Rel ([], n) st r ->
  exists n1 l1, next_line_after srcl n = Some (n1, l1) /\ Rel (tag_line n1 l1, n1) st r.
Proof.
  intros n st r ((sb & n0 & sd & sr & sa & pb & pd & pr & pa & Es & Ep & Hb & Hd & Hr & Ha & Ek & Hpc) & Hlt & Hf).
  injection Ek as Et <-. destruct sr as [| s0 sr0]; [| discriminate]. inversion Hr; subst pr. clear Hr Et.
  rewrite app_nil_r in Es, Ep.
  assert (Hpa : pa <> []).
  { intros ->. rewrite Ep, prog_ops_app, prog_ops_single, lenN_app in Hlt. lia. }
  destruct pa as [| [n1 ps1] pa']; [contradiction |]. inversion Ha as [| [n1' ss1] y sa' ys [En1 Hs1] Ha']; subst. cbn [fst snd] in En1, Hs1. subst n1'.
  pose proof Hasc as Hasc'. rewrite Ep in Hasc'. apply ascending_app in Hasc'. destruct Hasc' as (_ & _ & Hbefore & lo' & Hafter & _).
  cbn [ascending fst] in Hafter. destruct Hafter as (_ & Hn1 & _).
  exists n1, ss1. split.
  - unfold next_line_after. rewrite Es. rewrite find_skip.
    + cbn [find fst]. destruct (N.ltb_spec n n); [lia |]. destruct (N.ltb_spec n n1); [reflexivity | lia].
    + intros x Hx. destruct (Forall2_In_l lmatch sb pb Hb x Hx) as (pl & Hpl & Ex & _).
      specialize (Hbefore pl (n, pd) Hpl (or_introl eq_refl)). cbn [fst] in Hbefore. apply N.ltb_ge. lia.
  - apply (Rel_line_start (sb ++ [(n, sd)]) n1 ss1 sa' (pb ++ [(n, pd)]) ps1 pa'); try assumption; try (rewrite <- app_assoc; assumption).
    + apply Forall2_app; [exact Hb | constructor; [split; [reflexivity | exact Hd] | constructor]].
    + rewrite Hpc, prog_ops_app, prog_ops_single, lenN_app. reflexivity.
Qed.

Lemma trace_off line st : s_tron st = false -> trace_line line st = (st, EvOk tt).
Proof. intros H. unfold trace_line. rewrite H. reflexivity. Qed.

Theorem vm_follows_sem : forall fuel k st r, Rel k st r -> final st (run O srcl fuel k st) r.
Proof.
  induction fuel as [| f IH]; intros k st r HR; [exact I |]. destruct k as [[| [ln s] more] n]; cbn [run fst snd].
  - destruct (line_step n st r HR) as (n1 & l1 & Enext & HR'). rewrite Enext. exact (IH _ st r HR').
  - destruct HR as (Hpos & _ & Hf). destruct (at_pos_stmt ln s more n (r_pc r) Hpos) as (-> & _).
    assert (Est : (if traces s then fst (trace_line n st) else st) = st).
    { destruct Hf as (_ & _ & Htr & _). rewrite (trace_off n st Htr). destruct (traces s); reflexivity. }
    rewrite Est. pose proof (stmt_step n s more st r Hpos Hf) as Hstep.
    destruct (exec O srcl 200 n s (more, n) st) as [st2 [k' | h]]; cbn [outcome] in Hstep.
    + destruct Hstep as (o1 & r2 & Hrun & Hp1 & HR2). exact (final_after st st2 r r2 o1 _ Hrun Hp1 (IH k' st2 r2 HR2)).
    + exact Hstep.
Qed.

(* the start of a run: RUN clears the variables and enters the program at its first line; the cursor is at the left margin *)
Theorem start_related : forall n ss rest inputs r, srcl = (n, ss) :: rest ->
  r_pc r = 0 -> r_vars r = vars_empty -> r_tron r = false -> r_slen r = sl -> r_col r = 0 -> loaded pls r ->
  Rel (tag_line n ss, n) (sem_start false inputs) r.
Proof.
  intros n ss rest inputs r Es Hpc Hv Ht Hs Hc Hl. destruct (split_match [] n ss rest Es) as (pb & ps & pa & Ep & Hb & Hss & Ha).
  inversion Hb; subst pb. apply (Rel_line_start [] n ss rest [] ps pa _ r Es Ep Hb Hss Ha Hpc).
  unfold sfacts, sem_start. cbn. repeat split; try assumption; symmetry; assumption.
Qed.

End Sim.
