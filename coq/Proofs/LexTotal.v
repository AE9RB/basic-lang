(* C03: accepting a line always terminates -- the scanner consumes at least one character per token; and the bound on the
   line number it reads (used for C15). *)
From BL Require Import Base.Prelude Lang.Lex.
From BL Require Export Proofs.LexSteps.
Local Open Scope N_scope.

(* every round leaves less text than it was given (scan1_spec), so the loop needs at most one round per character *)
Theorem scan_total : forall fuel cs, (length cs < fuel)%nat -> exists ts, scan fuel cs = Ok ts.
Proof.
  induction fuel as [| f IH]; intros cs Hf; [lia |].
  destruct cs as [| pk r]; [exists []; reflexivity |].
  destruct (scan1_spec pk r) as (toks & next & E & Hp & _). cbn [scan]. rewrite E. cbn [bind fst snd].
  destruct next as [rest |]; [| exists toks; reflexivity].
  destruct (IH rest ltac:(lia)) as [ts Ets]. rewrite Ets. exists (toks ++ ts). reflexivity.
Qed.

(* lexing any line at all succeeds: no BASIC error, no panic, no endless loop *)
Theorem lex_total : forall src, exists num toks, lex src = Ok (num, toks).
Proof.
  intros src. destruct (split_line_number src) as [num body] eqn:Es. rewrite (lex_split src num body Es).
  destruct (scan_total (S (length body)) body ltac:(lia)) as [ts E]. rewrite E.
  exists num, (post_passes ts). reflexivity.
Qed.

Theorem lex_line_number_bound : forall src n toks, lex src = Ok (Some n, toks) -> n <= 65529.
Proof.
  intros src n toks H. destruct (split_line_number src) as [num body] eqn:Es. rewrite (lex_split src num body Es) in H.
  destruct (scan _ _); cbn in H; try discriminate. injection H as -> _.
  unfold split_line_number in Es. destruct (parse_u16 _) as [k |]; [| discriminate].
  destruct (N.leb_spec k 65529); [injection Es as <- _; assumption | discriminate].
Qed.
