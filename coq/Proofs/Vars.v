(* C06: the variable store -- typed, zero-initialised, no aliasing. *)
From BL Require Import Base.Prelude Mach.Val Mach.Var.
Local Open Scope N_scope.

Lemma bind_ok {A B} (r : res A) (f : A -> res B) b : bind r f = Ok b -> exists a, r = Ok a /\ f a = Ok b.
Proof. destruct r as [a | | |]; try discriminate. intros H. exists a. split; [reflexivity | exact H]. Qed.
Lemma bind_err {A B} (r : res A) (f : A -> res B) e : bind r f = Err e -> r = Err e \/ exists a, r = Ok a /\ f a = Err e.
Proof.
  destruct r as [a | e' | |]; try discriminate; intros H.
  - right. exists a. split; [reflexivity | exact H].
  - left. injection H as ->. reflexivity.
Qed.

Lemma str_eqb_eq a b : str_eqb a b = true <-> a = b.
Proof.
  revert b. induction a as [| x a IH]; destruct b as [| y b]; cbn; split; intros H; try discriminate; try reflexivity.
  - apply andb_prop in H. destruct H as [H1 H2]. apply N.eqb_eq in H1. apply IH in H2. congruence.
  - injection H as -> ->. rewrite N.eqb_refl. cbn. apply IH. reflexivity.
Qed.
Lemma str_eqb_refl a : str_eqb a a = true. Proof. apply str_eqb_eq. reflexivity. Qed.
Lemma str_eqb_neq a b : a <> b -> str_eqb a b = false.
Proof. intros H. destruct (str_eqb a b) eqn:E; [apply str_eqb_eq in E; contradiction | reflexivity]. Qed.

Section Alist.
Context {V : Type}.
Implicit Types l : list (str * V).

Lemma alist_get_remove k k' l : alist_get k' (alist_remove k l) = if str_eqb k' k then None else alist_get k' l.
Proof.
  induction l as [| [k2 v] r IH]; cbn; [destruct (str_eqb k' k); reflexivity |].
  destruct (str_eqb k k2) eqn:E; cbn; rewrite IH.
  - apply str_eqb_eq in E. subst k2. destruct (str_eqb k' k); reflexivity.
  - destruct (str_eqb k' k) eqn:E'; [| reflexivity]. apply str_eqb_eq in E'. subst k'. rewrite E. reflexivity.
Qed.
Lemma alist_get_set k k' v l : alist_get k' (alist_set k v l) = if str_eqb k' k then Some v else alist_get k' l.
Proof. unfold alist_set. cbn. rewrite alist_get_remove. destruct (str_eqb k' k); reflexivity. Qed.
Lemma get_filter_some (f : str * V -> bool) k v l : alist_get k (filter f l) = Some v -> alist_get k l <> None.
Proof.
  induction l as [| [k2 v2] r IH]; cbn; [discriminate |].
  destruct (f (k2, v2)); cbn; destruct (str_eqb k k2); try discriminate; auto.
Qed.

Lemma alist_get_In k v l : alist_get k l = Some v -> In (k, v) l.
Proof.
  induction l as [| [k2 v2] r IH]; cbn; [discriminate |].
  destruct (str_eqb k k2) eqn:E; [apply str_eqb_eq in E; subst; intros H; injection H as ->; left; reflexivity | intros H; right; auto].
Qed.
Lemma In_remove k k' v l : In (k', v) (alist_remove k l) -> In (k', v) l.
Proof.
  induction l as [| [k2 v2] r IH]; cbn; [auto |].
  destruct (str_eqb k k2); cbn; [intros H; right; auto | intros [H | H]; [left; exact H | right; auto]].
Qed.
Lemma remove_len k l : (length (alist_remove k l) <= length l)%nat.
Proof. induction l as [| [k' v] r IH]; cbn; [lia |]. destruct (str_eqb k k'); cbn; lia. Qed.
Lemma remove_len_lt k v l : alist_get k l = Some v -> (length (alist_remove k l) < length l)%nat.
Proof.
  induction l as [| [k' x] r IH]; cbn; [discriminate |].
  destruct (str_eqb k k'); [pose proof (remove_len k r); lia |]. cbn. intros H. specialize (IH H). lia.
Qed.
End Alist.

(* the branch for a value that already has the type is a shortcut, not a special case *)
Lemma convert_to_int v : convert_to TInt v = do n <- to_i16 v; Ok (VInt n).
Proof. unfold convert_to. destruct v; reflexivity. Qed.
Lemma convert_to_sng v : convert_to TSng v = do b <- to_f32 v; Ok (VSng b).
Proof. unfold convert_to. destruct v; reflexivity. Qed.
Lemma convert_to_dbl v : convert_to TDbl v = do b <- to_f64 v; Ok (VDbl b).
Proof. unfold convert_to. destruct v; reflexivity. Qed.

Lemma convert_to_type t v v' : convert_to t v = Ok v' -> val_type v' = Some t.
Proof.
  destruct t; [rewrite convert_to_int | rewrite convert_to_sng | rewrite convert_to_dbl |]; intros H.
  1-3: apply bind_ok in H; destruct H as (x & _ & H); injection H as <-; reflexivity.
  unfold convert_to in H. destruct v as [s | | | | |]; try discriminate.
  destruct (255 <? lenN s); [discriminate | injection H as <-; reflexivity].
Qed.

(* of a float only the range test in front of the cast is looked at *)
Lemma to_i16_err v e : to_i16 v = Err e -> ecode e = E_Overflow \/ ecode e = E_TypeMismatch.
Proof.
  destruct v; cbn [to_i16]; unfold float_to_int32, float_to_int64; try destruct (_ && _); try discriminate;
    intros H; injection H as <-; auto.
Qed.
Lemma to_f32_err v e : to_f32 v = Err e -> ecode e = E_TypeMismatch.
Proof. destruct v; try discriminate; intros H; injection H as <-; reflexivity. Qed.
Lemma to_f64_err v e : to_f64 v = Err e -> ecode e = E_TypeMismatch.
Proof. destruct v; try discriminate; intros H; injection H as <-; reflexivity. Qed.

Definition well_typed (vs : varstore) : Prop :=
  forall k v, In (k, v) (vs_vars vs) ->
    exists t, key_type (vs_types vs) k = Some t /\ val_type v = Some t.

Lemma zero_of_type t : val_type (zero_of t) = Some t.
Proof. destruct t; reflexivity. Qed.

Lemma update_val_inv vs k v vs' : update_val vs k v = Ok vs' ->
  vs' = mkVars (if is_default v then alist_remove k (vs_vars vs) else alist_set k v (vs_vars vs)) (vs_dims vs) (vs_types vs)
  /\ (is_default v = false -> alist_get k (vs_vars vs) = None -> lenN (vs_vars vs) <= 65535).
Proof.
  unfold update_val. destruct (is_default v); [intros H; injection H as <-; split; [reflexivity | discriminate] |].
  destruct (alist_get k (vs_vars vs)); [intros H; injection H as <-; split; [reflexivity | discriminate] |].
  destruct (N.ltb_spec 65535 (lenN (vs_vars vs))) as [Hlen | Hlen]; [discriminate | intros H; injection H as <-; split; [reflexivity | auto]].
Qed.

Lemma update_val_get vs k v vs' : update_val vs k v = Ok vs' ->
  forall k', alist_get k' (vs_vars vs') = if str_eqb k' k then (if is_default v then None else Some v) else alist_get k' (vs_vars vs).
Proof.
  intros H k'. apply update_val_inv in H. destruct H as [-> _]. cbn [vs_vars].
  destruct (is_default v); [rewrite alist_get_remove | rewrite alist_get_set]; reflexivity.
Qed.

Lemma var_store_inv vs k v vs' : var_store vs k v = Ok vs' ->
  exists t v', key_type (vs_types vs) k = Some t /\ convert_to t v = Ok v' /\ update_val vs k v' = Ok vs'.
Proof.
  unfold var_store. destruct (key_type (vs_types vs) k) as [t |]; [| destruct k; discriminate].
  intros H. apply bind_ok in H. destruct H as (v' & Hc & H). exists t, v'. auto.
Qed.

(* an assignment changes nothing for any other variable, array element or parameter (distinct keys never share storage) *)
Theorem store_frame : forall vs k v vs' k', var_store vs k v = Ok vs' -> k' <> k -> var_fetch vs' k' = var_fetch vs k'.
Proof.
  intros vs k v vs' k' H Hne. destruct (var_store_inv _ _ _ _ H) as (t & v' & _ & _ & Hu).
  unfold var_fetch. rewrite (update_val_get _ _ _ _ Hu k'), (str_eqb_neq _ _ Hne).
  apply update_val_inv in Hu. destruct Hu as [-> _]. reflexivity.
Qed.

Lemma set_range_nth {A} (l : list A) from to (x : A) i j :
  nth_error (set_range l from to x i) j =
  match nth_error l j with
  | Some y => Some (if (Nat.leb from (i + j) && Nat.leb (i + j) to)%bool then x else y)
  | None => None
  end.
Proof.
  revert i j. induction l as [| y r IH]; intros i j; destruct j; cbn; try reflexivity.
  - rewrite Nat.add_0_r. reflexivity.
  - rewrite IH. replace (S i + j)%nat with (i + S j)%nat by lia. reflexivity.
Qed.

(* the type table is indexed by letter - 'A'; on capitals that keeps the order *)
Lemma letter_range cf c ct : is_upper cf = true -> is_upper c = true -> is_upper ct = true ->
  (Nat.leb (N.to_nat (cf - 65)) (N.to_nat (c - 65)) && Nat.leb (N.to_nat (c - 65)) (N.to_nat (ct - 65)))%bool
  = (cf <=? c) && (c <=? ct).
Proof.
  unfold is_upper. intros Hf Hc Ht. apply eq_true_iff_eq.
  rewrite !andb_true_iff, !Nat.leb_le, !N.leb_le in *. lia.
Qed.

Definition suffixed (k : str) : bool :=
  ends_with_chr k 33 || ends_with_chr k 35 || ends_with_chr k 37 || ends_with_chr k 36.

Lemma key_type_suffixed types types' k : suffixed k = true -> key_type types' k = key_type types k.
Proof.
  unfold suffixed, key_type. destruct (ends_with_chr k 33); [reflexivity |]. destruct (ends_with_chr k 35); [reflexivity |].
  destruct (ends_with_chr k 37); [reflexivity |]. destruct (ends_with_chr k 36); [reflexivity | discriminate].
Qed.

Lemma key_type_plain types k : suffixed k = false ->
  key_type types k = match after_last_dot k k with c :: _ => type_of_letter types c | [] => None end.
Proof.
  unfold suffixed, key_type. destruct (ends_with_chr k 33); [discriminate |]. destruct (ends_with_chr k 35); [discriminate |].
  destruct (ends_with_chr k 37); [discriminate |]. destruct (ends_with_chr k 36); [discriminate | reflexivity].
Qed.

Lemma vtype_eqb_eq a b : vtype_eqb a b = true -> a = b.
Proof. destruct a, b; cbn; intros H; try discriminate; reflexivity. Qed.

Local Open Scope Z_scope.

Lemma subscripts_nonneg arr req : subscripts arr = Ok req -> Forall (fun r => 0 <= r) req.
Proof.
  revert req. induction arr as [| v r IH]; cbn; intros req H; [injection H as <-; constructor |].
  apply bind_ok in H. destruct H as (n & _ & H).
  destruct (Z.ltb_spec n 0); [discriminate |].
  apply bind_ok in H. destruct H as (rest & Hr & H). injection H as <-.
  constructor; [assumption | apply IH; exact Hr].
Qed.

Lemma all_le_spec : forall rs ds, length rs = length ds -> all_le rs ds = true -> Forall2 (fun r d => r <= d) rs ds.
Proof.
  induction rs as [| r rs IH]; destruct ds as [| d ds]; cbn; intros Hl H; try discriminate; [constructor |].
  apply andb_prop in H. destruct H as [H1 H2]. apply Z.leb_le in H1. constructor; [exact H1 | apply IH; [lia | exact H2]].
Qed.

Lemma build_array_key_eq vs name arr req dim : subscripts arr = Ok req ->
  dim = match alist_get name (vs_dims vs) with Some d => d | None => repeat 10 (length req) end ->
  build_array_key vs name arr =
  (match alist_get name (vs_dims vs) with
   | Some _ => vs
   | None => mkVars (vs_vars vs) (alist_set name dim (vs_dims vs)) (vs_types vs)
   end,
   if negb (Nat.eqb (length dim) (length req)) then err E_Subscript
   else if negb (all_le req dim) then err E_Subscript else Ok (array_key name req)).
Proof.
  intros Es ->. unfold build_array_key. rewrite Es.
  destruct (alist_get name (vs_dims vs)); destruct (negb (Nat.eqb _ _)); try reflexivity; destruct (negb (all_le _ _)); reflexivity.
Qed.

Lemma all_le_nth : forall req dim i r d, nth_error req i = Some r -> nth_error dim i = Some d -> d < r -> all_le req dim = false.
Proof.
  induction req as [| r0 req IH]; intros dim i r d Hr Hd Hlt; [destruct i; discriminate |].
  destruct dim as [| d0 dim]; [destruct i; discriminate |]. cbn. destruct i as [| i]; cbn in Hr, Hd.
  - injection Hr as ->. injection Hd as ->. destruct (Z.leb_spec r d); [lia | reflexivity].
  - rewrite (IH dim i r d Hr Hd Hlt). apply andb_false_r.
Qed.

(* arrays: distinct elements have distinct keys *)
From BL Require Import Proofs.DecN.
Local Open Scope N_scope.

Definition comma_free (s : str) : Prop := ~ In c_comma s.

Lemma split_at_first (c : N) : forall a b x y, ~ In c a -> ~ In c b -> a ++ c :: x = b ++ c :: y -> a = b /\ x = y.
Proof.
  induction a as [| p a IH]; destruct b as [| q b]; cbn; intros x y Ha Hb E.
  - injection E as <-. split; reflexivity.
  - injection E as E _. exfalso. apply Hb. left. symmetry. exact E.
  - injection E as E _. exfalso. apply Ha. left. exact E.
  - injection E as -> E. destruct (IH b x y) as [-> ->]; [tauto | tauto | exact E | split; reflexivity].
Qed.

Lemma digits_comma_free s : all_b is_digit s = true -> comma_free s.
Proof.
  unfold comma_free. induction s as [| c r IH]; cbn; [tauto |]. intros H [E | E].
  - subst c. cbn in H. discriminate.
  - apply andb_prop in H. tauto.
Qed.

Lemma dec_of_Z_nonneg z : (0 <= z)%Z -> dec_of_Z z = dec_of_N (Z.to_N z).
Proof. intros H. unfold dec_of_Z. destruct (Z.ltb_spec z 0); [lia |]. f_equal. lia. Qed.

Fixpoint key_rest (name : str) (idx : list Z) : str :=
  match idx with
  | [] => name
  | i :: r => dec_of_Z i ++ c_comma :: key_rest name r
  end.

Lemma array_key_rest name idx : array_key name idx = name ++ c_comma :: key_rest name idx.
Proof.
  unfold array_key. f_equal. induction idx as [| i r IH]; [reflexivity |].
  cbn [flat_map key_rest]. rewrite <- app_assoc. cbn [app]. f_equal. f_equal. exact IH.
Qed.

Lemma key_rest_inj name : comma_free name -> forall idx idx',
  Forall (fun i => 0 <= i)%Z idx -> Forall (fun i => 0 <= i)%Z idx' -> key_rest name idx = key_rest name idx' -> idx = idx'.
Proof.
  intros Hn. induction idx as [| i r IH]; destruct idx' as [| i' r']; cbn; intros H1 H2 E; [reflexivity | | |].
  - exfalso. apply Hn. rewrite E. apply in_or_app. right. left. reflexivity.
  - exfalso. apply Hn. rewrite <- E. apply in_or_app. right. left. reflexivity.
  - inversion H1; subst. inversion H2; subst.
    rewrite !dec_of_Z_nonneg in E by assumption.
    apply split_at_first in E; try (apply digits_comma_free, dec_of_N_digits).
    destruct E as [Ed Er]. apply dec_of_N_inj in Ed. f_equal; [lia | apply IH; assumption].
Qed.
