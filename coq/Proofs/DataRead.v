(* For C09 (READ consumes DATA in order; the theorems are in Props/C09.v): one READ (do_read_eq) and the k READs in a row (reads) they speak of. *)
From BL Require Import Base.Prelude Mach.Val Mach.Compile Mach.Listing Mach.Runtime Proofs.ExprCompile.
Local Open Scope N_scope.

Definition data_of (r : rt) : list val := l_data (pg_link (r_prog r)).
Definition data_pos (r : rt) : N := l_data_pos (pg_link (r_prog r)).

Lemma do_read_eq : forall r v, nthN (data_of r) (data_pos r) = Some v -> r_slen r + 1 <= MAX_POOL ->
  do_read r = (pushed (set_data_pos r (data_pos r + 1)) v, Ok tt).
Proof.
  intros r v Hn Hs. unfold do_read, rbind, rget. unfold data_of, data_pos in Hn. rewrite Hn. cbn [rmod].
  apply push_ok. exact Hs.
Qed.

Lemma skipnN_cons : forall A (l : list A) n v rest, skipnN n l = v :: rest ->
  nthN l n = Some v /\ skipnN (n + 1) l = rest.
Proof.
  intros A l n v rest. unfold skipnN, nthN. replace (N.to_nat (n + 1)) with (S (N.to_nat n)) by lia.
  generalize (N.to_nat n) as m. induction l as [| y l IH]; intros m E; destruct m; cbn in *; try discriminate.
  - injection E as -> ->. split; reflexivity.
  - apply IH. exact E.
Qed.

Fixpoint reads (k : nat) : RM unit :=
  match k with O => rret tt | S m => rdo _ <~ do_read ;; reads m end.

