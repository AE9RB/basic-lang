(* A program logic for the parser monad, and C03 for the parser.
   Only p_next and p_peekt change the parser state.  So whatever property of the state those two preserve is preserved by every
   parser function, and the one walk through the parser that shows this also shows that none of them answers with the outcome
   that stands for a Rust panic.  With the trivial property this is C03; with "stands at a token boundary" it is the alignment
   half of C19 (ParseCols.v). *)
From BL Require Import Base.Prelude Lang.Token Lang.Ast Lang.Parse.
Local Open Scope N_scope.

Definition np {A} (m : P A) : Prop := forall st, m st <> Panic.

Definition closed (Inv : pst -> Prop) : Prop := forall st, Inv st -> Inv (snd (p_next st)) /\ Inv (snd (p_peekt st)).

Definition spec (Inv : pst -> Prop) {A} (Pre : pst -> Prop) (m : P A) (Post : A -> pst -> Prop) : Prop :=
  forall st, Inv st -> Pre st -> match m st with Ok (a, st') => Inv st' /\ Post a st' | Panic => False | _ => True end.

Section Spec.
Variable Inv : pst -> Prop.
Context {A B : Type}.
Implicit Types (Pre : pst -> Prop) (m : P A) (Post : A -> pst -> Prop).

Lemma spec_ret Pre (a : A) Post : (forall st, Pre st -> Post a st) -> spec Inv Pre (pret a) Post.
Proof. intros H st HI HP. exact (conj HI (H st HP)). Qed.

Lemma spec_bind Pre m Mid (f : A -> P B) (Post : B -> pst -> Prop) :
  spec Inv Pre m Mid -> (forall a, spec Inv (Mid a) (f a) Post) -> spec Inv Pre (pbind m f) Post.
Proof.
  intros Hm Hf st HI HP. specialize (Hm st HI HP). unfold pbind. destruct (m st) as [[a st1] | | |]; try exact Hm.
  exact (Hf a st1 (proj1 Hm) (proj2 Hm)).
Qed.

Lemma spec_fail Pre code c Post : spec Inv Pre (@pfail A code c) Post.
Proof. intros st _ _. exact I. Qed.
Lemma spec_fail_here Pre code Post : spec Inv Pre (@pfail_here A code) Post.
Proof. intros st _ _. exact I. Qed.
Lemma spec_hang Pre Post : spec Inv Pre (fun _ : pst => @Hang (A * pst)) Post.
Proof. intros st _ _. exact I. Qed.

Lemma spec_weaken Pre Pre' m Post (Post' : A -> pst -> Prop) :
  (forall st, Pre' st -> Pre st) -> (forall a st, Post a st -> Post' a st) -> spec Inv Pre m Post -> spec Inv Pre' m Post'.
Proof.
  intros H1 H2 H st HI HP. specialize (H st HI (H1 st HP)). destruct (m st) as [[a st'] | | |]; try exact H.
  exact (conj (proj1 H) (H2 a st' (proj2 H))).
Qed.

Lemma spec_pure (Q : Prop) m Post : (Q -> spec Inv (fun _ => True) m Post) -> spec Inv (fun _ => Q) m Post.
Proof. intros H st HI HQ. exact (H HQ st HI I). Qed.

Lemma spec_lift Pre (x : res A) : x <> Panic ->
  spec Inv Pre (fun st => match x with Ok e => Ok (e, st) | Err e => Err e | Panic => Panic | Hang => Hang end) (fun _ => Pre).
Proof. intros Hx st HI HP. destruct x; [exact (conj HI HP) | exact I | exact (Hx eq_refl) | exact I]. Qed.
End Spec.

Lemma spec_pcolm Inv Pre : spec Inv Pre pcolm (fun c st => c = pcol st /\ Pre st).
Proof. intros st HI HP. exact (conj HI (conj eq_refl HP)). Qed.

Lemma spec_pcolm_bind Inv {B} Pre (f : col -> P B) Post :
  (forall c, (exists st, Pre st /\ c = pcol st) -> spec Inv (fun _ => True) (f c) Post) -> spec Inv Pre (pbind pcolm f) Post.
Proof. intros H st HI HP. exact (H (pcol st) (ex_intro _ st (conj HP eq_refl)) st HI I). Qed.

Definition tame {A} (m : P A) : Prop := forall Inv, closed Inv -> spec Inv (fun _ => True) m (fun _ _ => True).

Lemma tame_spec Inv {A} Pre (m : P A) : tame m -> closed Inv -> spec Inv Pre m (fun _ _ => True).
Proof. intros H HC. exact (spec_weaken Inv _ _ m _ _ (fun _ _ => I) (fun _ _ H0 => H0) (H Inv HC)). Qed.

Lemma tame_np {A} (m : P A) : tame m -> np m.
Proof. intros H st E. specialize (H (fun _ => True) (fun _ _ => conj I I) st I I). rewrite E in H. exact H. Qed.

Lemma tame_pnext : tame pnext.
Proof. intros Inv HC st HI _. unfold pnext. pose proof (proj1 (HC st HI)) as H. destruct (p_next st). exact (conj H I). Qed.
Lemma tame_ppeek : tame ppeek.
Proof. intros Inv HC st HI _. unfold ppeek. pose proof (proj2 (HC st HI)) as H. destruct (p_peekt st). exact (conj H I). Qed.
Lemma tame_pcolm : tame pcolm.
Proof. intros Inv HC st HI _. exact (conj HI I). Qed.
Lemma tame_lift {A} (x : res A) : x <> Panic ->
  tame (fun st => match x with Ok e => Ok (e, st) | Err e => Err e | Panic => Panic | Hang => Hang end).
Proof. intros Hx Inv _. exact (spec_weaken Inv _ _ _ _ _ (fun _ H => H) (fun _ _ _ => I) (spec_lift Inv _ x Hx)). Qed.

(* One step through a parser function.  A bind asks the hints what is known of its first action (a specification, or that
   it is tame); of a first action that is itself composed nothing is remembered.  What a `pret` has to establish is left to
   the caller unless it is trivial.  A precondition that does not speak of the state moves into the context, and so does
   what a precondition says of a position that is read. *)
Create HintDb sp discriminated.
#[export] Hint Resolve tame_spec tame_pnext tame_ppeek tame_pcolm : sp.

Ltac sp_plain :=
  lazymatch goal with
  | |- spec _ _ (pret _) _ => apply spec_ret; intros ? ?; try exact I
  | |- spec _ _ (pbind ?m _) _ =>
      first [ eapply spec_bind; [solve [auto with sp] | intros ?; cbv beta]
            | apply (spec_bind _ _ m (fun _ _ => True)); [ | intros ?] ]
  | |- spec _ _ (pfail _ _) _ => apply spec_fail
  | |- spec _ _ (pfail_here _) _ => apply spec_fail_here
  | |- spec _ _ (fun _ => Hang) _ => apply spec_hang
  | |- spec _ _ (if ?b then _ else _) _ => destruct b
  | |- spec _ _ (match ?x with _ => _ end) _ => destruct x
  | |- spec _ _ (let '(_, _) := ?x in _) _ => destruct x
  | |- spec _ _ _ _ => solve [auto with sp]
  end.
Ltac sp_step :=
  lazymatch goal with
  | |- spec _ (fun _ => True) _ _ => sp_plain
  | |- spec _ (fun _ => ?Q) _ _ => apply spec_pure; intros ?
  | |- spec _ _ (pbind pcolm _) _ => apply spec_pcolm_bind; intros ? (? & ? & ->)
  | |- _ => sp_plain
  end.
Ltac sp := repeat sp_step.
Ltac tame_by_walk := intros Inv HC; sp.

Lemma tame_maybe t : tame (maybe t). Proof. unfold maybe. tame_by_walk. Qed.
Lemma tame_expect t : tame (expect t). Proof. unfold expect. tame_by_walk. Qed.
#[export] Hint Resolve tame_maybe tame_expect : sp.

Lemma parse_literal_np : forall c l, parse_literal c l <> Panic.
Proof.
  intros c l H. unfold parse_literal, err_col in H.
  destruct l; repeat match type of H with context [match ?x with _ => _ end] => destruct x end; try discriminate H.
Qed.
#[export] Hint Resolve tame_lift parse_literal_np : sp.

Lemma tame_exprs : forall fuel,
  (forall vm prec, tame (descend fuel vm prec)) /\ (forall vm prec lhs, tame (climb fuel vm prec lhs)) /\ (forall vm, tame (expr_list fuel vm)).
Proof.
  induction fuel as [| f (IHd & IHc & IHl)]; [repeat split; intros; intros Inv HC; apply spec_hang |].
  split; [| split].
  - intros vm prec. cbn [descend]. tame_by_walk.
  - intros vm prec lhs. cbn [climb]. tame_by_walk.
  - intros vm. cbn [expr_list]. tame_by_walk.
Qed.
Lemma tame_descend fuel vm prec : tame (descend fuel vm prec). Proof. apply tame_exprs. Qed.
Lemma tame_expr_list fuel vm : tame (expr_list fuel vm). Proof. apply tame_exprs. Qed.
Lemma tame_expression fuel : tame (expression fuel). Proof. apply tame_descend. Qed.
#[export] Hint Resolve tame_descend tame_expr_list tame_expression : sp.

Lemma tame_expect_ident : tame expect_ident. Proof. unfold expect_ident. tame_by_walk. Qed.
#[export] Hint Resolve tame_expect_ident : sp.
Lemma tame_ident_list fuel b : tame (ident_list fuel b).
Proof. revert b. induction fuel as [| f IH]; intros b; cbn [ident_list]; tame_by_walk. Qed.
Lemma tame_expect_var fuel : tame (expect_var fuel). Proof. unfold expect_var. tame_by_walk. Qed.
#[export] Hint Resolve tame_ident_list tame_expect_var : sp.
Lemma tame_var_list fuel : tame (var_list fuel).
Proof. induction fuel as [| f IH]; cbn [var_list]; tame_by_walk. Qed.
Lemma tame_maybe_line_number : tame maybe_line_number. Proof. unfold maybe_line_number. tame_by_walk. Qed.
#[export] Hint Resolve tame_var_list tame_maybe_line_number : sp.
Lemma tame_expect_line_number : tame expect_line_number. Proof. unfold expect_line_number. tame_by_walk. Qed.
#[export] Hint Resolve tame_expect_line_number : sp.
Lemma tame_line_number_list fuel b : tame (line_number_list fuel b).
Proof. revert b. induction fuel as [| f IH]; intros b; cbn [line_number_list]; tame_by_walk. Qed.
Lemma tame_line_number_range : tame line_number_range. Proof. unfold line_number_range. tame_by_walk. Qed.
Lemma tame_var_range : tame var_range. Proof. unfold var_range. tame_by_walk. Qed.
Lemma tame_print_list fuel b : tame (print_list fuel b).
Proof. revert b. induction fuel as [| f IH]; intros b; cbn [print_list]; tame_by_walk. Qed.
Lemma tame_skip_to_end fuel : tame (skip_to_end fuel).
Proof. induction fuel as [| f IH]; cbn [skip_to_end]; tame_by_walk. Qed.
Lemma tame_renum_start d : tame (renum_start d). Proof. unfold renum_start. tame_by_walk. Qed.
#[export] Hint Resolve tame_line_number_list tame_line_number_range tame_var_range tame_print_list tame_skip_to_end tame_renum_start : sp.

Lemma tame_stmts : forall fuel, tame (statement fuel) /\ (forall b, tame (st_let fuel b)) /\ (forall b, tame (statements fuel b)).
Proof.
  induction fuel as [| f (IHs & IHl & IHss)]; [repeat split; intros; intros Inv HC; apply spec_hang |].
  split; [| split].
  - cbn [statement]. tame_by_walk.
  - intros b. cbn [st_let]. tame_by_walk.
  - intros b. cbn [statements]. tame_by_walk.
Qed.

Lemma np_maybe t : np (maybe t). Proof. exact (tame_np _ (tame_maybe t)). Qed.
Lemma np_expect t : np (expect t). Proof. exact (tame_np _ (tame_expect t)). Qed.
Lemma np_expr_list fuel vm : np (expr_list fuel vm). Proof. exact (tame_np _ (tame_expr_list fuel vm)). Qed.
Lemma np_expression fuel : np (expression fuel). Proof. exact (tame_np _ (tame_expression fuel)). Qed.
Lemma np_expect_ident : np expect_ident. Proof. exact (tame_np _ tame_expect_ident). Qed.
Lemma np_ident_list fuel b : np (ident_list fuel b).
Proof. exact (tame_np _ (tame_ident_list fuel b)). Qed.
Lemma np_expect_var fuel : np (expect_var fuel). Proof. exact (tame_np _ (tame_expect_var fuel)). Qed.
Lemma np_var_list fuel : np (var_list fuel).
Proof. exact (tame_np _ (tame_var_list fuel)). Qed.
Lemma np_maybe_line_number : np maybe_line_number. Proof. exact (tame_np _ tame_maybe_line_number). Qed.
Lemma np_expect_line_number : np expect_line_number. Proof. exact (tame_np _ tame_expect_line_number). Qed.
Lemma np_line_number_list fuel b : np (line_number_list fuel b).
Proof. exact (tame_np _ (tame_line_number_list fuel b)). Qed.
Lemma np_line_number_range : np line_number_range. Proof. exact (tame_np _ tame_line_number_range). Qed.
Lemma np_var_range : np var_range. Proof. exact (tame_np _ tame_var_range). Qed.
Lemma np_print_list fuel b : np (print_list fuel b).
Proof. exact (tame_np _ (tame_print_list fuel b)). Qed.
Lemma np_skip_to_end fuel : np (skip_to_end fuel).
Proof. exact (tame_np _ (tame_skip_to_end fuel)). Qed.
Lemma np_renum_start d : np (renum_start d). Proof. exact (tame_np _ (tame_renum_start d)). Qed.

Definition line_start (toks : list token) : pst := snd (p_peekt (mkP toks None false 0 0)).

Lemma parse_statements n toks : (exists e, parse n toks = Err e) \/
  parse n toks = match statements (parse_fuel toks) false (line_start toks) with
                 | Ok (l, _) => Ok l | Err e => Err e | Panic => Panic | Hang => Hang end.
Proof.
  unfold parse, line_start. destruct (p_peekt _) as [pk st1]. cbn [snd].
  assert (G : forall r : res (list stmt), (exists e, match r with Err e0 => Err (in_line e0 n) | _ => r end = Err e)
                                          \/ match r with Err e0 => Err (in_line e0 n) | _ => r end = r).
  { intros [l | e | |]; [right | left; eexists | right | right]; reflexivity. }
  destruct pk as [[| | [s | s | s | s | s | s] | | | | | | | |] |]; try apply G; left; eexists; reflexivity.
Qed.
