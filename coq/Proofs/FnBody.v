(* For C10_function_body_runs (Props/C10.v): the parameter stores that open a function's code bind the arguments one by one
   (bind_params, pops_bind); at the end, the whole code of a function computed on an example. *)
From BL Require Import Base.Prelude Base.Floats Mach.Val Mach.Var Lang.Token Lang.Ast Mach.Compile Mach.Runtime Proofs.ExprCompile.
Local Open Scope N_scope.

Fixpoint bind_params (vs : varstore) (names : list str) (args : list val) : res varstore :=
  match names, args with
  | [], [] => Ok vs
  | n :: ns, a :: rest => do vs1 <- var_store vs n a; bind_params vs1 ns rest
  | _, _ => err E_Internal
  end.

Lemma pops_bind : forall O h names args r rest vs',
  r_stack r = args ++ rest -> r_slen r = lenN (args ++ rest) -> bind_params (r_vars r) names args = Ok vs' ->
  run_ops O h (map OpPop names) r = (set_vars (set_stack_len r rest (lenN rest)) vs', Ok tt).
Proof.
  intros O h. induction names as [| n ns IH]; intros args r rest vs' Hs Hl Hb.
  - destruct args; [| discriminate Hb]. cbn [bind_params] in Hb. injection Hb as <-. cbn [map run_ops app] in *. unfold rret.
    subst rest. rewrite <- Hl. destruct r; reflexivity.
  - destruct args as [| a args]; [discriminate Hb |]. cbn [bind_params] in Hb.
    destruct (var_store (r_vars r) n a) as [vs1 | | |] eqn:Ev; try discriminate Hb. cbn [bind] in Hb.
    cbn [map run_ops exec_op]. unfold rbind at 1. unfold rbind at 1. unfold rbind at 1. unfold pop at 1. rewrite Hs. cbn [app].
    cbn [r_vars set_stack_len]. rewrite Ev. unfold rret at 1.
    rewrite (IH args _ rest vs'); cbn [r_stack r_slen r_vars set_vars set_stack_len].
    + reflexivity.
    + reflexivity.
    + rewrite Hl. unfold lenN. cbn [app List.length]. lia.
    + exact Hb.
Qed.

(* non-vacuity: FNA(X)=X+1 called with 2 from address 7, under a value the caller had on the stack *)
From BL Require Import Drv.Driver.
Require Import String.
Definition fn_demo_body : expr := EBin (0, 0) BAdd (EUnary (0, 0) (IPlain (s2l "FNA.X"))) (ESng (0, 0) (f32_of_Z 1)).
Definition fn_demo_machine : rt :=
  set_stack_len rt_default [VSng (f32_of_Z 2); VRet 7; VInt 9] 3.
Example fn_demo_premises :
  pure fn_demo_body = true /\
  bind_params (r_vars fn_demo_machine) [s2l "FNA.X"] [VSng (f32_of_Z 2)] <> err E_Internal /\
  match run_ops dummy_oracle false (map OpPop [s2l "FNA.X"] ++ postfix fn_demo_body ++ [OpReturn]) fn_demo_machine with
  | (r', Ok _) => r_stack r' = [VSng (f32_of_Z 3); VInt 9] /\ r_pc r' = 7
  | _ => False
  end.
Proof. split; [reflexivity |]. split; [vm_compute; discriminate |]. vm_compute. split; reflexivity. Qed.
