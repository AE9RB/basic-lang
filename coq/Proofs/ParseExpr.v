(* C02: the expression parser builds the tree the precedence table prescribes.
   For every expression tree over identifiers, literals, array elements / function calls with any number of arguments,
   unary minus, NOT and the binary operators, the parser
   (Lang/Parse.v: descend / climb, precedence climbing with a one-token look-ahead), run on the tokens of the tree's
   minimally parenthesised rendering, returns that tree (columns aside) and stops in front of whatever follows. *)
From BL Require Import Base.Prelude Base.Decimal Lang.Token Lang.Ast Mach.Func Lang.Parse.
Local Open Scope N_scope.

Definition clean (t : token) : bool :=
  negb (is_rem_tok t) && match t with TWs _ => false | _ => true end.

Definition vis (toks : list token) : list token := filter (fun t => match t with TWs _ => false | _ => true end) toks.
Definition no_rem (toks : list token) : bool := forallb (fun t => negb (is_rem_tok t)) toks.

(* st stands in front of the tokens ts (blanks between them not counted): nothing or exactly the first of them is held in
   the look-ahead slot *)
Definition rep (st : pst) (ts : list token) : Prop :=
  p_rem st = false /\ forallb clean ts = true /\ no_rem (p_toks st) = true /\
  ((p_peek st = None /\ vis (p_toks st) = ts) \/ (exists t r, p_peek st = Some t /\ ts = t :: r /\ vis (p_toks st) = r)).

Lemma next_raw_vis : forall toks ce, no_rem toks = true ->
  exists toks' cs ce', next_raw toks false ce = (hd_error (vis toks), toks', false, cs, ce') /\ vis toks' = tl (vis toks) /\ no_rem toks' = true.
Proof.
  induction toks as [| t0 rest IH]; intros ce Hn; [exists [], ce, ce; split; [reflexivity | split; reflexivity] |].
  cbn [no_rem forallb] in Hn. apply andb_prop in Hn. destruct Hn as [Hn0 Hnr]. apply Bool.negb_true_iff in Hn0.
  cbn [next_raw orb]. rewrite Hn0. destruct t0; try (eexists; eexists; eexists; split; [reflexivity | split; [reflexivity | exact Hnr]]).
  exact (IH _ Hnr).
Qed.

Lemma pnext_rep st ts : rep st ts -> exists st', pnext st = Ok (hd_error ts, st') /\ rep st' (tl ts) /\ p_peek st' = None.
Proof.
  intros (Hrem & Hc & Hn & H).
  assert (Hc' : forallb clean (tl ts) = true) by (destruct ts; [reflexivity | exact (proj2 (andb_prop _ _ Hc))]).
  unfold pnext, p_next. destruct H as [[Hp <-] | (t & r & Hp & -> & Ht)]; rewrite Hp.
  - destruct (next_raw_vis (p_toks st) (p_ce st) Hn) as (toks' & cs & ce' & E & Hv & Hn'). rewrite Hrem, E.
    eexists. split; [reflexivity |]. split; [| reflexivity]. split; [reflexivity |]. split; [exact Hc' |]. split; [exact Hn' |]. left. split; [reflexivity | exact Hv].
  - eexists. split; [reflexivity |]. split; [| reflexivity]. split; [exact Hrem |]. split; [exact Hc' |]. split; [exact Hn |]. left. split; [reflexivity | exact Ht].
Qed.

Lemma ppeek_rep st ts : rep st ts -> exists st', ppeek st = Ok (hd_error ts, st') /\ rep st' ts.
Proof.
  intros H. unfold ppeek, p_peekt. destruct (p_peek st) as [t |] eqn:Hp.
  - exists st. split; [| exact H].
    destruct H as (_ & _ & _ & [[Hp' _] | (t' & r & Hp' & -> & _)]); rewrite Hp in Hp'; [discriminate | injection Hp' as ->; reflexivity].
  - destruct (pnext_rep st ts H) as (st' & E & (Hrem' & _ & Hn' & Hrep') & Hpk). unfold pnext in E. injection E as E. rewrite E.
    eexists. split; [reflexivity |]. split; [exact Hrem' |]. split; [exact (proj1 (proj2 H)) |]. split; [exact Hn' |]. cbn [p_peek p_toks].
    destruct Hrep' as [[_ Ht'] | (t1 & r1 & Hp1 & _)]; [| rewrite Hpk in Hp1; discriminate].
    destruct ts as [| t r]; [left; split; [reflexivity | exact Ht'] |]. right. exists t, r. split; [reflexivity |]. split; [reflexivity | exact Ht'].
Qed.

Lemma token_eqb_refl t : token_eqb t t = true.
Proof.
  unfold token_eqb. rewrite N.eqb_refl. cbn [andb].
  assert (Hs : forall s, str_eqb s s = true).
  { induction s as [| c r IH]; [reflexivity |]. cbn [str_eqb]. rewrite N.eqb_refl. exact IH. }
  rewrite Hs. destruct t; try reflexivity. cbn. apply N.eqb_refl.
Qed.

Lemma expect_rep st t r : rep st (t :: r) -> exists st', expect t st = Ok (tt, st') /\ rep st' r.
Proof.
  intros H. destruct (pnext_rep st _ H) as (st' & E & Hr & _). unfold expect, pbind. rewrite E. cbn [hd_error]. rewrite token_eqb_refl.
  exists st'. split; [reflexivity | exact Hr].
Qed.

Lemma maybe_yes st t r : rep st (t :: r) -> exists st', maybe t st = Ok (true, st') /\ rep st' r.
Proof.
  intros H. destruct (ppeek_rep st _ H) as (s1 & E1 & H1). destruct (pnext_rep s1 _ H1) as (s2 & E2 & H2 & _).
  exists s2. split; [| exact H2]. unfold maybe, pbind. rewrite E1. cbn [hd_error]. rewrite token_eqb_refl, E2. reflexivity.
Qed.

Lemma maybe_no st t ts : rep st ts -> match ts with t' :: _ => token_eqb t' t = false | [] => True end ->
  exists st', maybe t st = Ok (false, st') /\ rep st' ts.
Proof.
  intros H Hne. destruct (ppeek_rep st ts H) as (s1 & E1 & H1). exists s1. split; [| exact H1]. unfold maybe, pbind. rewrite E1.
  destruct ts; cbn [hd_error]; [| rewrite Hne]; reflexivity.
Qed.

Definition primary (g : nat) (vm : varmap) (t : option token) : P expr :=
  match t with
  | Some TLParen => pdo e <~ descend g vm 0 ;; pdo _ <~ expect TRParen ;; pret e
  | Some (TIdent id) =>
      pdo c <~ pcolm ;;
      pdo pk <~ ppeek ;;
      match pk with
      | Some TLParen =>
          pdo _ <~ expect TLParen ;;
          pdo closed <~ maybe TRParen ;;
          pdo args <~ (if closed then pret [] else (pdo l <~ expr_list g vm ;; pdo _ <~ expect TRParen ;; pret l)) ;;
          pdo c2 <~ pcolm ;;
          pret (EArray (fst c, snd c2) id args)
      | _ =>
          if is_user_function id then pfail E_Syntax c
          else match vm_get vm id with Some v => pret (expr_of_var v) | None => pret (EUnary c id) end
      end
  | Some (TOp OPlus) => descend g vm 12
  | Some (TOp OMinus) => pdo c <~ pcolm ;; pdo e <~ descend g vm 12 ;; pret (ENeg c e)
  | Some (TOp ONot) => pdo c <~ pcolm ;; pdo e <~ descend g vm 6 ;; pret (ENot c e)
  | Some (TLit l) => pdo c <~ pcolm ;; (fun st => match parse_literal c l with
                                                  | Ok e => Ok (e, st) | Err e => Err e | Panic => Panic | Hang => Hang end)
  | _ => pfail_here E_Syntax
  end.

Lemma descend_S g vm p : descend (S g) vm p = (pdo t <~ pnext ;; pdo lhs <~ primary g vm t ;; climb g vm p lhs).
Proof. reflexivity. Qed.

Lemma climb_S g vm p lhs : climb (S g) vm p lhs =
  (pdo pk <~ ppeek ;;
   match pk with
   | Some (TOp o) =>
       if binary_prec o <=? p then pret lhs
       else pdo _ <~ pnext ;; pdo c <~ pcolm ;; pdo rhs <~ descend g vm (binary_prec o) ;;
            match binop_of o with Some b => climb g vm p (EBin c b lhs rhs) | None => pfail E_Internal (0, 0) end
   | _ => pret lhs
   end).
Proof. reflexivity. Qed.

Lemma expr_list_S g vm : expr_list (S g) vm =
  (pdo e <~ descend g vm 0 ;; pdo more <~ maybe TComma ;; if more then (pdo l <~ expr_list g vm ;; pret (e :: l)) else pret [e]).
Proof. reflexivity. Qed.

Definition le_ok {A} (m m' : P A) : Prop := forall st r, m st = Ok r -> m' st = Ok r.

Lemma le_ok_refl {A} (m : P A) : le_ok m m. Proof. intros st r H. exact H. Qed.
Lemma le_ok_bind {A B} (m m' : P A) (k k' : A -> P B) : le_ok m m' -> (forall a, le_ok (k a) (k' a)) -> le_ok (pbind m k) (pbind m' k').
Proof.
  intros Hm Hk st r H. unfold pbind in *. destruct (m st) as [[a st1] | e | |] eqn:E; try discriminate.
  rewrite (Hm st _ E). exact (Hk a st1 r H).
Qed.

(* the bodies at f and at S f have the same shape: walk both, closing the recursive calls with the hypotheses at hand *)
Ltac mono_step :=
  repeat first
    [ apply le_ok_refl
    | match goal with H : context [le_ok] |- _ => apply H end
    | apply le_ok_bind; [| intros ?]
    | match goal with |- le_ok (match ?x with _ => _ end) (match ?x with _ => _ end) => destruct x end
    | match goal with |- le_ok (if ?b then _ else _) (if ?b then _ else _) => destruct b end ].

Lemma primary_mono f : (forall vm p, le_ok (descend f vm p) (descend (S f) vm p)) -> (forall vm, le_ok (expr_list f vm) (expr_list (S f) vm)) ->
  forall vm t, le_ok (primary f vm t) (primary (S f) vm t).
Proof. intros IHd IHl vm t. unfold primary. mono_step. Qed.

Lemma fuel_mono : forall f,
  (forall vm p, le_ok (descend f vm p) (descend (S f) vm p))
  /\ (forall vm p lhs, le_ok (climb f vm p lhs) (climb (S f) vm p lhs))
  /\ (forall vm, le_ok (expr_list f vm) (expr_list (S f) vm)).
Proof.
  induction f as [| f (IHd & IHc & IHl)].
  - repeat split; intros; intros st r H; discriminate.
  - pose proof (primary_mono f IHd IHl) as IHp. repeat split; intros.
    + rewrite !descend_S. mono_step.
    + cbn [climb]. mono_step.
    + cbn [expr_list]. mono_step.
Qed.

Lemma le_ok_le {A} (m : nat -> P A) : (forall f, le_ok (m f) (m (S f))) -> forall f g, (f <= g)%nat -> le_ok (m f) (m g).
Proof. intros H f g Hle. induction Hle as [| g _ IH]; [apply le_ok_refl |]. intros st r E. exact (H g st r (IH st r E)). Qed.

Lemma mono_d f g vm p : (f <= g)%nat -> le_ok (descend f vm p) (descend g vm p).
Proof. exact (le_ok_le (fun f => descend f vm p) (fun f => proj1 (fuel_mono f) vm p) f g). Qed.
Lemma mono_c f g vm p lhs : (f <= g)%nat -> le_ok (climb f vm p lhs) (climb g vm p lhs).
Proof. exact (le_ok_le (fun f => climb f vm p lhs) (fun f => proj1 (proj2 (fuel_mono f)) vm p lhs) f g). Qed.
Lemma mono_l f g vm : (f <= g)%nat -> le_ok (expr_list f vm) (expr_list g vm).
Proof. exact (le_ok_le (fun f => expr_list f vm) (fun f => proj2 (proj2 (fuel_mono f)) vm) f g). Qed.
Lemma mono_p f g vm t : (f <= g)%nat -> le_ok (primary f vm t) (primary g vm t).
Proof.
  exact (le_ok_le (fun f => primary f vm t) (fun f => primary_mono f (proj1 (fuel_mono f)) (proj2 (proj2 (fuel_mono f))) vm t) f g).
Qed.

Inductive ax := AId (i : ident) | ALit (l : literal) | ANeg (x : ax) | ANot (x : ax) | ABin (o : operator) (a b : ax)
              | ACall (i : ident) (args : list ax).        (* array element or function call: ID ( a1 , ... , an ), n >= 0 *)

Section AxInd.
Variable Q : ax -> Prop.
Hypothesis Hid : forall i, Q (AId i).
Hypothesis Hlit : forall l, Q (ALit l).
Hypothesis Hneg : forall x, Q x -> Q (ANeg x).
Hypothesis Hnot : forall x, Q x -> Q (ANot x).
Hypothesis Hbin : forall o a b, Q a -> Q b -> Q (ABin o a b).
Hypothesis Hcall : forall i args, Forall Q args -> Q (ACall i args).
Fixpoint ax_ind2 (x : ax) : Q x :=
  match x with
  | AId i => Hid i | ALit l => Hlit l
  | ANeg a => Hneg a (ax_ind2 a) | ANot a => Hnot a (ax_ind2 a)
  | ABin o a b => Hbin o a b (ax_ind2 a) (ax_ind2 b)
  | ACall i args => Hcall i args ((fix go (l : list ax) : Forall Q l :=
                                     match l with [] => Forall_nil _ | y :: r => Forall_cons _ (ax_ind2 y) (go r) end) args)
  end.
End AxInd.

Definition eprec (x : ax) : N :=
  match x with AId _ | ALit _ | ACall _ _ => 100 | ANeg _ => 12 | ANot _ => 6 | ABin o _ _ => binary_prec o end.

Definition paren (ts : list token) : list token := TLParen :: ts ++ [TRParen].

(* parentheses exactly where the table demands them: around a left operand that binds weaker than the operator, around a
   right operand that does not bind stronger (operators of one level group to the left), around the operand of a unary
   operator that does not bind stronger than it *)
Fixpoint raw (x : ax) : list token :=
  match x with
  | AId i => [TIdent i]
  | ALit l => [TLit l]
  | ANeg a => TOp OMinus :: (if 12 + 1 <=? eprec a then raw a else paren (raw a))
  | ANot a => TOp ONot :: (if 6 + 1 <=? eprec a then raw a else paren (raw a))
  | ABin o l r => (if binary_prec o <=? eprec l then raw l else paren (raw l))
                  ++ TOp o :: (if binary_prec o + 1 <=? eprec r then raw r else paren (raw r))
  | ACall i args =>
      TIdent i :: TLParen ::
      (fix commas (l : list ax) : list token :=
         match l with [] => [] | [a] => raw a | a :: r => raw a ++ TComma :: commas r end) args ++ [TRParen]
  end.
Definition commas : list ax -> list token :=
  fix commas (l : list ax) : list token := match l with [] => [] | [a] => raw a | a :: r => raw a ++ TComma :: commas r end.

Fixpoint strip (e : expr) : expr :=
  match e with
  | EUnary _ i => EUnary (0, 0) i
  | EArray _ i args => EArray (0, 0) i (map strip args)
  | ESng _ b => ESng (0, 0) b | EDbl _ b => EDbl (0, 0) b | EInt _ n => EInt (0, 0) n | EStr _ s => EStr (0, 0) s
  | ENeg _ x => ENeg (0, 0) (strip x) | ENot _ x => ENot (0, 0) (strip x)
  | EBin _ o a b => EBin (0, 0) o (strip a) (strip b)
  end.

Fixpoint tree (x : ax) : expr :=
  match x with
  | AId i => EUnary (0, 0) i
  | ALit l => match parse_literal (0, 0) l with Ok e => e | _ => EInt (0, 0) 0 end
  | ANeg a => ENeg (0, 0) (tree a)
  | ANot a => ENot (0, 0) (tree a)
  | ABin o a b => match binop_of o with Some bo => EBin (0, 0) bo (tree a) (tree b) | None => EInt (0, 0) 0 end
  | ACall i args => EArray (0, 0) i (map tree args)
  end.

Fixpoint wf (x : ax) : Prop :=
  match x with
  | AId i => is_user_function i = false
  | ALit l => exists e, parse_literal (0, 0) l = Ok e
  | ANeg a | ANot a => wf a
  | ABin o a b => o <> ONot /\ wf a /\ wf b
  | ACall i args => (fix all (l : list ax) : Prop := match l with [] => True | y :: r => wf y /\ all r end) args
  end.

Definition lead_le (n : N) (ts : list token) : Prop :=
  match ts with TOp o :: _ => binary_prec o <= n | TLParen :: _ => False | _ => True end.

Lemma lead_le_mono n m ts : n <= m -> lead_le n ts -> lead_le m ts.
Proof. intros H. destruct ts as [| [] r]; cbn; try tauto. lia. Qed.

Lemma lit_col c l :
  match parse_literal c l, parse_literal (0, 0) l with Ok e, Ok e0 => strip e = e0 | Err _, Err _ => True | _, _ => False end.
Proof.
  destruct l as [s | s | s | s | s | s]; cbn [parse_literal err_col];
    [destruct (parse_f32 _) | destruct (parse_f64 _) | destruct (parse_i16 _)
     | destruct (i16_from_str_radix _ _) | destruct (i16_from_str_radix _ _) | destruct (255 <? lenN s)];
    first [reflexivity | exact I].
Qed.

Lemma lit_strip c l e : parse_literal c l = Ok e -> exists e0, parse_literal (0, 0) l = Ok e0 /\ strip e = e0.
Proof.
  intros H. pose proof (lit_col c l) as G. rewrite H in G. destruct (parse_literal (0, 0) l) as [e0 | | |]; try contradiction.
  exists e0. split; [reflexivity | exact G].
Qed.

Lemma lit_any_col c l e0 : parse_literal (0, 0) l = Ok e0 -> exists e, parse_literal c l = Ok e /\ strip e = e0.
Proof.
  intros H. pose proof (lit_col c l) as G. rewrite H in G. destruct (parse_literal c l) as [e | | |]; try contradiction.
  exists e. split; [reflexivity | exact G].
Qed.

Lemma climb_stop g p e st rest : rep st rest -> lead_le p rest -> exists st', climb (S g) [] p e st = Ok (e, st') /\ rep st' rest.
Proof.
  intros Hr Hl. rewrite climb_S. unfold pbind. destruct (ppeek_rep st rest Hr) as (st' & E & Hr'). rewrite E. exists st'. split; [| exact Hr'].
  destruct rest as [| [] r]; try reflexivity. cbn [hd_error lead_le] in *. destruct (N.leb_spec (binary_prec o) p); [reflexivity | lia].
Qed.

Lemma climb_op p lhs st o b ts : rep st (TOp o :: ts) -> p < binary_prec o -> binop_of o = Some b ->
  exists c st1, rep st1 ts /\ forall f rhs st2 g r, descend f [] (binary_prec o) st1 = Ok (rhs, st2) ->
    climb g [] p (EBin c b lhs rhs) st2 = Ok r -> exists h, climb h [] p lhs st = Ok r.
Proof.
  intros Hr Hp Hb. destruct (ppeek_rep st _ Hr) as (sa & Ea & Hra). destruct (pnext_rep sa _ Hra) as (sb & Eb & Hrb & _).
  exists (pcol sb), sb. split; [exact Hrb |]. intros f rhs st2 g r Hd Hc. exists (S (Nat.max f g)).
  rewrite climb_S. unfold pbind. rewrite Ea. cbn [hd_error]. destruct (N.leb_spec (binary_prec o) p); [lia |]. rewrite Eb. unfold pcolm.
  rewrite (mono_d f _ _ _ (Nat.le_max_l f g) _ _ Hd), Hb. exact (mono_c g _ _ _ _ (Nat.le_max_r f g) _ _ Hc).
Qed.

(* the invariant of precedence climbing: descend p, started in front of the tokens of x followed by rest, behaves like the
   loop at level p that holds the tree of x and stands in front of rest *)
Definition like_climb (p : N) (st : pst) (x : ax) (rest : list token) : Prop :=
  exists e st1, strip e = tree x /\ rep st1 rest /\
    forall g r, climb g [] p e st1 = Ok r -> exists f, descend f [] p st = Ok r.

Lemma like_primary p st x rest t ts : rep st (t :: ts) ->
  (forall s1, rep s1 ts -> exists f e s2, primary f [] (Some t) s1 = Ok (e, s2) /\ strip e = tree x /\ rep s2 rest) ->
  like_climb p st x rest.
Proof.
  intros Hr H. destruct (pnext_rep st _ Hr) as (s1 & E1 & Hr1 & _). destruct (H s1 Hr1) as (f & e & s2 & Ep & Hs & Hr2).
  exists e, s2. split; [exact Hs |]. split; [exact Hr2 |]. intros g r Hc. exists (S (Nat.max f g)).
  rewrite descend_S. unfold pbind. rewrite E1. cbn [hd_error]. rewrite (mono_p f _ _ _ (Nat.le_max_l f g) _ _ Ep).
  exact (mono_c g _ _ _ _ (Nat.le_max_r f g) _ _ Hc).
Qed.

Lemma like_operand q st x rest : like_climb q st x rest -> lead_le q rest ->
  exists f e st2, descend f [] q st = Ok (e, st2) /\ strip e = tree x /\ rep st2 rest.
Proof.
  intros (e & st1 & Hs & Hr & Hk) Hl. destruct (climb_stop 0 q e st1 rest Hr Hl) as (st2 & Ec & Hr2).
  destruct (Hk 1%nat _ Ec) as [f Hf]. exists f, e, st2. split; [exact Hf | split; [exact Hs | exact Hr2]].
Qed.

Lemma eprec_pos x : wf x -> 1 <= eprec x.
Proof. destruct x as [i | l | a | a | o a b | i args]; cbn; try lia. intros (Ho & _). destruct o; cbn; try lia. contradiction. Qed.

Definition keyP (x : ax) : Prop := wf x ->
  forall p n rest st, p < n -> n <= eprec x -> lead_le n rest -> rep st (raw x ++ rest) -> like_climb p st x rest.

Lemma operand_at x : keyP x -> wf x -> forall q rest st, q + 1 <= eprec x -> lead_le q rest -> rep st (raw x ++ rest) ->
  exists f e st2, descend f [] q st = Ok (e, st2) /\ strip e = tree x /\ rep st2 rest.
Proof.
  intros K W q rest st Hq Hl Hr. apply like_operand; [| exact Hl].
  exact (K W q (q + 1) rest st ltac:(lia) Hq (lead_le_mono q (q + 1) rest ltac:(lia) Hl) Hr).
Qed.

Definition sub (n : N) (x : ax) : list token := if n <=? eprec x then raw x else paren (raw x).

Lemma like_sub x : keyP x -> wf x -> forall p n rest st, p < n -> lead_le n rest -> rep st (sub n x ++ rest) -> like_climb p st x rest.
Proof.
  intros K W p n rest st Hp Hl Hr. unfold sub in Hr. destruct (N.leb_spec n (eprec x)) as [Hge | Hlt]; [exact (K W p n rest st Hp Hge Hl Hr) |].
  unfold paren in Hr. cbn [app] in Hr. rewrite <- app_assoc in Hr. apply (like_primary p st x rest _ _ Hr). intros s1 Hr1.
  destruct (operand_at x K W 0 (TRParen :: rest) s1 (eprec_pos x W) I Hr1) as (f & e & s2 & Hd & Hs & Hr2). destruct (expect_rep s2 _ _ Hr2) as (s3 & E3 & Hr3).
  exists f, e, s3. split; [| split; [exact Hs | exact Hr3]]. cbn [primary]. unfold pbind. rewrite Hd, E3. reflexivity.
Qed.

Lemma sub_operand x : keyP x -> wf x -> forall q rest st, lead_le q rest -> rep st (sub (q + 1) x ++ rest) ->
  exists f e st2, descend f [] q st = Ok (e, st2) /\ strip e = tree x /\ rep st2 rest.
Proof.
  intros K W q rest st Hl Hr. apply like_operand; [| exact Hl].
  apply (like_sub x K W q (q + 1)); [lia | exact (lead_le_mono q (q + 1) rest ltac:(lia) Hl) | exact Hr].
Qed.

Lemma key_unary (neg : bool) a : keyP a -> keyP (if neg then ANeg a else ANot a).
Proof.
  intros IH W p n rest st Hp Hn Hl Hr. set (q := if neg then 12 else 6).
  assert (Hr' : rep st (TOp (if neg then OMinus else ONot) :: sub (q + 1) a ++ rest)) by (destruct neg; exact Hr).
  assert (Hq : n <= q) by (destruct neg; exact Hn).
  assert (Wa : wf a) by (destruct neg; exact W).
  apply (like_primary p st _ rest _ _ Hr'). intros s1 Hr1.
  destruct (sub_operand a IH Wa q rest s1 (lead_le_mono _ _ _ Hq Hl) Hr1) as (f & a' & s2 & Hd & Hs & Hr2).
  exists f, (if neg then ENeg (pcol s1) a' else ENot (pcol s1) a'), s2.
  split; [| split; [destruct neg; cbn [strip tree]; rewrite Hs; reflexivity | exact Hr2]].
  destruct neg; cbn [primary]; unfold pbind, pcolm; fold q; rewrite Hd; reflexivity.
Qed.

Lemma raw_call i args : raw (ACall i args) = TIdent i :: TLParen :: commas args ++ [TRParen].
Proof. reflexivity. Qed.

Lemma wf_call i args : wf (ACall i args) -> Forall wf args.
Proof. cbn [wf]. induction args as [| a r IH]; intros H; constructor; [exact (proj1 H) | exact (IH (proj2 H))]. Qed.

Lemma raw_head : forall a, exists t ts, raw a = t :: ts /\ token_eqb t TRParen = false.
Proof.
  induction a as [i | l | a _ | a _ | o l IHl r _ | i args]; cbn [raw].
  - exists (TIdent i), []. split; [reflexivity |]. destruct i; reflexivity.
  - exists (TLit l), []. split; [reflexivity |]. destruct l; reflexivity.
  - eexists. eexists. split; reflexivity.
  - eexists. eexists. split; reflexivity.
  - destruct (binary_prec o <=? eprec l); [| eexists; eexists; split; reflexivity].
    destruct IHl as (t & ts & -> & Ht). eexists. eexists. split; [reflexivity | exact Ht].
  - exists (TIdent i). eexists. split; [reflexivity |]. destruct i; reflexivity.
Qed.

Lemma args_parse : forall args, args <> [] -> Forall keyP args -> Forall wf args ->
  forall rest st, rep st (commas args ++ TRParen :: rest) ->
  exists f es st', expr_list f [] st = Ok (es, st') /\ map strip es = map tree args /\ rep st' (TRParen :: rest).
Proof.
  induction args as [| a r IH]; [contradiction |]. intros _ HQ HW rest st Hr.
  inversion HQ as [| ? ? Qa Qr]; subst. inversion HW as [| ? ? Wa Wr]; subst. destruct r as [| b r'].
  - cbn [commas] in Hr. destruct (operand_at a Qa Wa 0 (TRParen :: rest) st (eprec_pos a Wa) I Hr) as (f & e & s2 & Hd & Hs & Hr2).
    destruct (maybe_no s2 TComma _ Hr2 eq_refl) as (s3 & E3 & Hr3).
    exists (S f), [e], s3. split; [| split; [cbn [map]; rewrite Hs; reflexivity | exact Hr3]].
    rewrite expr_list_S. unfold pbind. rewrite Hd, E3. reflexivity.
  - change (commas (a :: b :: r')) with (raw a ++ TComma :: commas (b :: r')) in Hr. rewrite <- app_assoc in Hr. cbn [app] in Hr.
    destruct (operand_at a Qa Wa 0 (TComma :: commas (b :: r') ++ TRParen :: rest) st (eprec_pos a Wa) I Hr) as (f & e & s2 & Hd & Hs & Hr2).
    destruct (maybe_yes s2 _ _ Hr2) as (s3 & E3 & Hr3).
    destruct (IH ltac:(discriminate) Qr Wr rest s3 Hr3) as (f1 & es & s4 & Hes & Hss & Hr4).
    exists (S (Nat.max f f1)), (e :: es), s4. split; [| split; [cbn [map]; rewrite Hs, Hss; reflexivity | exact Hr4]].
    rewrite expr_list_S. unfold pbind.
    rewrite (mono_d f _ _ _ (Nat.le_max_l f f1) _ _ Hd), E3, (mono_l f1 _ _ (Nat.le_max_r f f1) _ _ Hes). reflexivity.
Qed.

Lemma key_call i args : Forall keyP args -> keyP (ACall i args).
Proof.
  intros IHargs W p n rest st Hp Hn Hl Hr.
  rewrite raw_call in Hr. cbn [app] in Hr. rewrite <- app_assoc in Hr. cbn [app] in Hr.
  apply (like_primary p st _ rest _ _ Hr). intros s1 Hr1.
  destruct (ppeek_rep s1 _ Hr1) as (s2 & E2 & Hr2). destruct (expect_rep s2 _ _ Hr2) as (s3 & E3 & Hr3).
  destruct args as [| a0 ar].
  - destruct (maybe_yes s3 _ _ Hr3) as (s4 & E4 & Hr4).
    exists 0%nat, (EArray (fst (pcol s1), snd (pcol s4)) i []), s4. split; [| split; [reflexivity | exact Hr4]].
    cbn [primary]. unfold pbind, pcolm. rewrite E2. cbn [hd_error]. rewrite E3, E4. reflexivity.
  - assert (Hhead : match commas (a0 :: ar) ++ TRParen :: rest with t' :: _ => token_eqb t' TRParen = false | [] => True end).
    { destruct (raw_head a0) as (t & ts & Et & Ht). destruct ar; cbn [commas]; rewrite Et; cbn [app]; exact Ht. }
    destruct (maybe_no s3 TRParen _ Hr3 Hhead) as (s4 & E4 & Hr4).
    destruct (args_parse (a0 :: ar) ltac:(discriminate) IHargs (wf_call i _ W) rest s4 Hr4) as (f & es & s5 & Hes & Hss & Hr5).
    destruct (expect_rep s5 _ _ Hr5) as (s6 & E6 & Hr6).
    exists f, (EArray (fst (pcol s1), snd (pcol s6)) i es), s6. split; [| split; [cbn [strip tree]; rewrite Hss; reflexivity | exact Hr6]].
    cbn [primary]. unfold pbind, pcolm, pret. rewrite E2. cbn [hd_error]. rewrite E3, E4, Hes, E6. reflexivity.
Qed.

Theorem key : forall x, keyP x.
Proof.
  induction x as [i | l | a IH | a IH | o l r IHl IHr | i args IHargs] using ax_ind2; unfold keyP in *; intros W p n rest st Hp Hn Hl Hr;
    [cbn [raw app wf eprec] in * .. | ].
  - (* identifier: what follows is not an opening parenthesis *)
    apply (like_primary p st _ rest _ _ Hr). intros s1 Hr1. destruct (ppeek_rep s1 rest Hr1) as (s2 & E2 & Hr2).
    exists 0%nat, (EUnary (pcol s1) i), s2. split; [| split; [reflexivity | exact Hr2]].
    cbn [primary]. unfold pbind, pcolm. rewrite E2, W. pose proof (lead_le_mono _ _ _ Hn Hl) as Hl'.
    destruct rest as [| [] r]; try reflexivity. contradiction.
  -
    destruct W as [e0 He0]. apply (like_primary p st _ rest _ _ Hr). intros s1 Hr1.
    destruct (lit_any_col (pcol s1) l e0 He0) as (e & Ee & Hs).
    exists 0%nat, e, s1. split; [| split; [cbn [tree]; rewrite He0; exact Hs | exact Hr1]].
    cbn [primary]. unfold pbind, pcolm. rewrite Ee. reflexivity.
  - exact (key_unary true a IH W p n rest st Hp Hn Hl Hr).
  - exact (key_unary false a IH W p n rest st Hp Hn Hl Hr).
  -
    destruct W as (Ho & Wl & Wr). rewrite <- app_assoc in Hr. cbn [app] in Hr.
    assert (Hb : exists b, binop_of o = Some b) by (destruct o; try contradiction; eexists; reflexivity). destruct Hb as [b Hb].
    destruct (like_sub l IHl Wl p (binary_prec o) (TOp o :: sub (binary_prec o + 1) r ++ rest) st ltac:(lia) (N.le_refl _) Hr) as (l' & sl & Hsl & Hrl & Hkl).
    destruct (climb_op p l' sl o b _ Hrl ltac:(lia) Hb) as (c & sop & Hrop & Hstep).
    destruct (sub_operand r IHr Wr (binary_prec o) rest sop (lead_le_mono _ _ _ Hn Hl) Hrop) as (fr & r' & sr & Hd & Hsr & Hrr).
    exists (EBin c b l' r'), sr. split; [cbn [strip tree]; rewrite Hb, Hsl, Hsr; reflexivity |]. split; [exact Hrr |]. intros g res Hc.
    destruct (Hstep fr r' sr g res Hd Hc) as [h Hh]. exact (Hkl h res Hh).
  - exact (key_call i args IHargs W p n rest st Hp Hn Hl Hr).
Qed.

Lemma raw_clean : forall x, forallb clean (raw x) = true.
Proof.
  assert (Hs : forall n x, forallb clean (raw x) = true -> forallb clean (sub n x) = true).
  { intros n x H. unfold sub, paren. destruct (n <=? eprec x); [exact H |]. cbn [forallb]. rewrite forallb_app, H. reflexivity. }
  induction x as [i | l | a IH | a IH | o l r IHl IHr | i args IHargs] using ax_ind2; try reflexivity.
  - exact (Hs (12 + 1) a IH).
  - exact (Hs (6 + 1) a IH).
  - change (raw (ABin o l r)) with (sub (binary_prec o) l ++ TOp o :: sub (binary_prec o + 1) r).
    rewrite forallb_app, (Hs _ l IHl). exact (Hs _ r IHr).
  - rewrite raw_call. change (forallb clean (commas args ++ [TRParen]) = true). rewrite forallb_app, Bool.andb_true_r.
    induction IHargs as [| a r Ha _ IHr]; [reflexivity |]. destruct r as [| b r']; [exact Ha |].
    change (commas (a :: b :: r')) with (raw a ++ TComma :: commas (b :: r')). rewrite forallb_app, Ha. exact IHr.
Qed.

(* the parser at level q, started in front of the rendering of a tree that binds stronger than q, followed by
   anything that cannot continue an expression at that level, returns the tree (columns aside) and stands in front of what
   follows.  Fuel: the model's stand-in for the Rust call stack; some amount suffices, and by fuel_mono every larger amount
   gives the same result. *)
Theorem operand_parses x q rest st : wf x -> q + 1 <= eprec x -> lead_le q rest -> rep st (raw x ++ rest) ->
  exists f e st', descend f [] q st = Ok (e, st') /\ strip e = tree x /\ rep st' rest.
Proof. intros W. exact (operand_at x (key x) W q rest st). Qed.

Lemma rep_start toks cs ce x rest : forallb clean rest = true -> no_rem toks = true -> vis toks = raw x ++ rest ->
  rep (mkP toks None false cs ce) (raw x ++ rest).
Proof.
  intros Hc Hn Hv. split; [reflexivity |]. split; [rewrite forallb_app, raw_clean, Hc; reflexivity |]. split; [exact Hn |].
  left. split; [reflexivity | exact Hv].
Qed.

From BL Require Import Lang.Lex.
From Coq Require Import String.
Definition idA := AId (IPlain [65]). Definition idB := AId (IPlain [66]). Definition idC := AId (IPlain [67]).
Definition two := ALit (LInt [50]).

(* the scanner's tokens for these texts are the renderings of these trees: subtraction groups to the left, ^ binds stronger
   than unary minus, NOT weaker than comparison, * stronger than + *)
Example renderings :
  lex (s2l "A-B-C") = Ok (None, raw (ABin OMinus (ABin OMinus idA idB) idC))
  /\ lex (s2l "A-(B-C)") = Ok (None, raw (ABin OMinus idA (ABin OMinus idB idC)))
  /\ lex (s2l "-2^2") = Ok (None, raw (ANeg (ABin OCaret two two)))
  /\ lex (s2l "NOT A=B") = Ok (None, TOp ONot :: TWs 1 :: raw (ABin OEq idA idB))
  /\ lex (s2l "A+B*C") = Ok (None, raw (ABin OPlus idA (ABin OMul idB idC)))
  /\ lex (s2l "(A+B)*C") = Ok (None, raw (ABin OMul (ABin OPlus idA idB) idC))
  /\ lex (s2l "A(2,B+2)*FNX(C)-D()") = Ok (None, raw (ABin OMinus (ABin OMul (ACall (IPlain [65]) [two; ABin OPlus idB two]) (ACall (IPlain [70; 78; 88]) [idC]))
                                                                         (ACall (IPlain [68]) [])))
  /\ wf (ABin OMinus (ABin OMinus idA idB) idC) /\ wf (ANeg (ABin OCaret two two))
  /\ wf (ABin OMul (ACall (IPlain [65]) [two; ABin OPlus idB two]) (ACall (IPlain [70; 78; 88]) [idC])).
Proof. vm_compute. repeat split; try discriminate; eexists; reflexivity. Qed.
