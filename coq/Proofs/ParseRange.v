(* C15: the operands of LIST and DELETE.  The range parser, on the token-list view of the parser state, reads
   nothing / n / n- / -m / n-m as the documented pair of bounds and rejects an inverted range. *)
From BL Require Import Base.Prelude Base.Floats Lang.Token Lang.Ast Lang.Parse Proofs.ParseExpr.
Local Open Scope N_scope.

Definition is_lnum (t : token) (n : N) : Prop :=
  (exists s, (t = TLit (LInt s) \/ t = TLit (LSng s) \/ t = TLit (LDbl s)) /\ parse_u16 s = Some n) /\ n <= 65529.
Definition not_number (ts : list token) : Prop :=
  match ts with TLit (LInt _) :: _ | TLit (LSng _) :: _ | TLit (LDbl _) :: _ => False | _ => True end.
Definition not_dash (ts : list token) : Prop := match ts with TOp OMinus :: _ => False | _ => True end.

Definition reads (o : option N) (ts r : list token) : Prop :=
  match o with Some n => exists t, ts = t :: r /\ is_lnum t n | None => ts = r /\ not_number r end.

Lemma maybe_lnum st o ts r : rep st ts -> reads o ts r -> exists st', maybe_line_number st = Ok (o, st') /\ rep st' r.
Proof.
  intros Hr H. destruct (ppeek_rep st ts Hr) as (s1 & E1 & H1). unfold maybe_line_number, pbind. rewrite E1. destruct o as [n |].
  - destruct H as (t & -> & (s & Ht & Hp) & Hn). destruct (pnext_rep s1 _ H1) as (s2 & E2 & H2 & _). exists s2. split; [| exact H2].
    cbn [hd_error]. destruct Ht as [-> | [-> | ->]]; rewrite E2, Hp; destruct (N.leb_spec n 65529); try lia; reflexivity.
  - destruct H as [-> Hn]. exists s1. split; [| exact H1].
    destruct r as [| [s0 | n0 | l | w | o | i | | | | |] r']; try reflexivity. destruct l; try reflexivity; contradiction.
Qed.

Lemma maybe_dash_no st ts : rep st ts -> not_dash ts -> exists st', maybe (TOp OMinus) st = Ok (false, st') /\ rep st' ts.
Proof.
  intros Hr Hn. apply maybe_no; [exact Hr |]. destruct ts as [| t r]; [exact I |].
  destruct t as [s0 | n0 | l | w | o | i | | | | |]; try reflexivity; try (destruct l; reflexivity); try (destruct i; reflexivity).
  destruct o; try reflexivity. contradiction.
Qed.

Definition bound (e : expr) (n : N) : Prop := strip e = ESng (0, 0) (f32_of_Z (Z.of_N n)).
Lemma bound_lnum c n : bound (lnum_expr c n) n. Proof. reflexivity. Qed.

(* no dash: the number, if there is one, is both ends; nothing stands for the whole program *)
Theorem range_one st fo ts r : rep st ts -> reads fo ts r -> not_dash r ->
  let n := match fo with Some n => n | None => 0 end in
  let m := match fo with Some n => n | None => 65529 end in
  exists a b st', line_number_range st = Ok ((a, b), st') /\ bound a n /\ bound b m /\ rep st' r.
Proof.
  intros Hr Hf Hd. destruct (maybe_lnum st fo ts r Hr Hf) as (s1 & E1 & H1). destruct (maybe_dash_no s1 r H1 Hd) as (s2 & E2 & H2).
  unfold line_number_range, pbind, pcolm. rewrite E1. destruct fo as [n |]; rewrite E2; cbn [pret]; rewrite ?N.ltb_irrefl;
    (eexists; eexists; exists s2; split; [reflexivity |]; split; [reflexivity |]; split; [reflexivity | exact H2]).
Qed.

(* a dash: the ends are the numbers in front of it and behind it, an omitted one standing for the first or the last line;
   an inverted range is refused *)
Theorem range_two st fo ts ts' to r : rep st ts -> reads fo ts (TOp OMinus :: ts') -> reads to ts' r ->
  let n := match fo with Some n => n | None => 0 end in
  let m := match to with Some m => m | None => 65529 end in
  if m <? n then exists e, line_number_range st = Err e /\ ecode e = E_UndefinedLine
  else exists a b st', line_number_range st = Ok ((a, b), st') /\ bound a n /\ bound b m /\ rep st' r.
Proof.
  intros Hr Hf Ht. destruct (maybe_lnum st fo ts _ Hr Hf) as (s1 & E1 & H1). destruct (maybe_yes s1 _ _ H1) as (s2 & E2 & H2).
  destruct (maybe_lnum s2 to ts' r H2 Ht) as (s3 & E3 & H3).
  unfold line_number_range, pbind, pcolm. rewrite E1. destruct fo as [n |], to as [m |]; rewrite E2, E3; cbn [pret]; cbn zeta.
  all: match goal with |- if ?b then _ else _ => destruct b end.
  all: first [eexists; split; reflexivity | eexists; eexists; exists s3; split; [reflexivity |]; split; [reflexivity |]; split; [reflexivity | exact H3]].
Qed.

(* the scanner's tokens behind LIST in "LIST 120-300" are of that shape *)
From BL Require Import Lang.Lex.
From Coq Require Import String.
Example range_tokens :
  lex (s2l "LIST 120-300") = Ok (None, [TWord WList; TWs 1; TLit (LInt (s2l "120")); TOp OMinus; TLit (LInt (s2l "300"))])
  /\ is_lnum (TLit (LInt (s2l "120"))) 120 /\ is_lnum (TLit (LInt (s2l "300"))) 300.
Proof.
  split; [vm_compute; reflexivity |]. split; (split; [eexists; split; [left; reflexivity | vm_compute; reflexivity] | lia]).
Qed.
