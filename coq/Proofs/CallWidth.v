(* C18: a built-in call that completes replaces exactly its arguments by its result.  How many stack entries a call
   owns is read off the arity table the code generator uses (Func.builtin_arity): a fixed arity n means n entries, a
   variable arity means the count literal the generator pushes plus that many entries.  Every handler of
   Runtime.do_builtin agrees with that table, and nothing beneath the arguments is touched: a handler that pops one
   entry too few (or too many) for some name breaks this file. *)
From BL Require Import Base.Prelude Mach.Val Mach.Func Mach.Runtime Drv.Driver Proofs.Vars Proofs.Strings.
From Coq Require Import String.
Local Open Scope N_scope.

Definition WF (r : rt) : Prop := r_slen r = lenN (r_stack r).

Definition call_width (name : str) (s : list val) : N :=
  match builtin_arity name with
  | Some (lo, hi) => if lo =? hi then lo else match s with VInt n :: _ => 1 + Z.to_N n | _ => 0 end
  | None => 0
  end.

(* Handlers are sequences of steps of these four kinds. *)
Definition takes {A} (w : list val -> N) (m : RM A) : Prop :=
  forall r r' x, WF r -> m r = (r', Ok x) ->
    w (r_stack r) <= lenN (r_stack r) /\ WF r' /\ r_stack r' = skipnN (w (r_stack r)) (r_stack r).
Definition keeps {A} (m : RM A) : Prop :=
  forall r r' x, WF r -> m r = (r', Ok x) -> WF r' /\ r_stack r' = r_stack r.
Definition adds {A} (m : RM A) : Prop :=
  forall r r' x, WF r -> m r = (r', Ok x) -> WF r' /\ exists v, r_stack r' = v :: r_stack r.
Definition replaces {A} (w : list val -> N) (m : RM A) : Prop :=
  forall r r' x, WF r -> m r = (r', Ok x) ->
    w (r_stack r) <= lenN (r_stack r) /\ WF r' /\ exists v, r_stack r' = v :: skipnN (w (r_stack r)) (r_stack r).

Lemma rbind_inv {A B} (m : RM A) (f : A -> RM B) r r' x :
  rbind m f r = (r', Ok x) -> exists r1 a, m r = (r1, Ok a) /\ f a r1 = (r', Ok x).
Proof. unfold rbind. destruct (m r) as [r1 [a | e | |]]; intros H; try discriminate. exists r1, a. split; [reflexivity | exact H]. Qed.

Section Steps.
Context {A B : Type} (m : RM A) (f : A -> RM B).

Lemma keeps_then_adds : keeps m -> (forall a, adds (f a)) -> adds (rbind m f).
Proof.
  intros Hm Hf r r' x H E. apply rbind_inv in E. destruct E as (r1 & a & E1 & E2).
  destruct (Hm _ _ _ H E1) as [H1 <-]. exact (Hf a _ _ _ H1 E2).
Qed.
Lemma adds_then_keeps : adds m -> (forall a, keeps (f a)) -> adds (rbind m f).
Proof.
  intros Hm Hf r r' x H E. apply rbind_inv in E. destruct E as (r1 & a & E1 & E2).
  destruct (Hm _ _ _ H E1) as [H1 Es]. destruct (Hf a _ _ _ H1 E2) as [H2 ->]. split; [exact H2 | exact Es].
Qed.
Lemma takes_then_adds w : takes w m -> (forall a, adds (f a)) -> replaces w (rbind m f).
Proof.
  intros Hm Hf r r' x H E. apply rbind_inv in E. destruct E as (r1 & a & E1 & E2).
  destruct (Hm _ _ _ H E1) as (Hl & H1 & <-). destruct (Hf a _ _ _ H1 E2) as [H2 Es]. split; [exact Hl | split; [exact H2 | exact Es]].
Qed.
Lemma replaces_then_keeps w : replaces w m -> (forall a, keeps (f a)) -> replaces w (rbind m f).
Proof.
  intros Hm Hf r r' x H E. apply rbind_inv in E. destruct E as (r1 & a & E1 & E2).
  destruct (Hm _ _ _ H E1) as (Hl & H1 & Es). destruct (Hf a _ _ _ H1 E2) as [H2 ->]. split; [exact Hl | split; [exact H2 | exact Es]].
Qed.
End Steps.

Lemma adds_replaces {A} (m : RM A) : adds m -> replaces (fun _ => 0) m.
Proof. intros Hm r r' x H E. destruct (Hm _ _ _ H E) as [H1 Es]. split; [apply N.le_0_l | split; [exact H1 | exact Es]]. Qed.

Lemma keeps_ret {A} (a : A) : keeps (rret a).
Proof. intros r r' x H E. injection E as <- _. split; [exact H | reflexivity]. Qed.
Lemma keeps_get : keeps rget.
Proof. intros r r' x H E. injection E as <- _. split; [exact H | reflexivity]. Qed.
Lemma keeps_lift {A} (y : res A) : keeps (rlift y).
Proof. intros r r' x H E. injection E as <- _. split; [exact H | reflexivity]. Qed.
Lemma keeps_set_rand s : keeps (rmod (fun r => set_rand r s (r_ent r))).
Proof. intros r r' x H E. injection E as <- _. split; [exact H | reflexivity]. Qed.

Lemma adds_push v : adds (push v).
Proof.
  intros r r' x H E. unfold push in E. cbv zeta in E. injection E as <- _.
  unfold WF in *. cbn [r_stack r_slen set_stack_len]. rewrite lenN_cons. split; [lia | exists v; reflexivity].
Qed.
Lemma pop_inv r r' v : WF r -> pop r = (r', Ok v) -> r_stack r = v :: r_stack r' /\ WF r'.
Proof.
  unfold WF, pop. intros H. destruct (r_stack r) as [| a s] eqn:Es; intros E; inversion E; subst.
  cbn [r_stack r_slen set_stack_len]. rewrite lenN_cons in H. split; [reflexivity | lia].
Qed.
Lemma pop_n_inv n r r' l : WF r -> pop_n n r = (r', Ok l) ->
  (0 <= n)%Z /\ Z.to_N n <= lenN (r_stack r) /\ r_stack r' = skipnN (Z.to_N n) (r_stack r) /\ WF r'.
Proof.
  unfold WF, pop_n. intros H. destruct (Z.ltb_spec n 0); cbn [orb]; [intros E; discriminate |].
  destruct (N.ltb_spec (r_slen r) (Z.to_N n)); intros E; inversion E; subst. cbn [r_stack r_slen set_stack_len].
  rewrite H in *. rewrite lenN_skipn. repeat split; try lia.
Qed.

Lemma takes_pop : takes (fun _ => 1) pop.
Proof.
  intros r r' v H E. destruct (pop_inv _ _ _ H E) as [Es Hw]. rewrite Es, lenN_cons.
  split; [lia | split; [exact Hw | reflexivity]].
Qed.
Lemma takes_pop2 : takes (fun _ => 2) pop2.
Proof.
  intros r r' p H E. unfold pop2 in E. apply rbind_inv in E. destruct E as (r1 & b & Eb & E).
  apply rbind_inv in E. destruct E as (r2 & a & Ea & E). injection E as <- _.
  destruct (pop_inv _ _ _ H Eb) as [Es1 H1]. destruct (pop_inv _ _ _ H1 Ea) as [Es2 H2]. rewrite Es1, Es2, !lenN_cons.
  split; [lia | split; [exact H2 | reflexivity]].
Qed.

Definition vec_width (s : list val) : N := match s with VInt n :: _ => 1 + Z.to_N n | _ => 0 end.

Lemma takes_pop_vec : takes vec_width pop_vec.
Proof.
  intros r r' l H E. unfold pop_vec in E. apply rbind_inv in E. destruct E as (r1 & v & Ep & E).
  destruct (pop_inv _ _ _ H Ep) as [Es H1].
  destruct v as [s0 | b0 | b0 | n | a0 | a0]; try discriminate E.
  destruct (pop_n_inv _ _ _ _ H1 E) as (Hn & Hl & Hs & H2).
  rewrite Es, lenN_cons. cbn [vec_width]. split; [lia | split; [exact H2 |]].
  rewrite Hs, N.add_comm, skipnN_succ. reflexivity.
Qed.

Lemma skip0 {A} (s : list A) : skipnN 0 s = s. Proof. reflexivity. Qed.
Lemma skip1 {A} (a : A) s : skipnN 1 (a :: s) = s. Proof. reflexivity. Qed.
Lemma skip2 {A} (a b : A) s : skipnN 2 (a :: b :: s) = s. Proof. reflexivity. Qed.

#[local] Hint Resolve keeps_ret keeps_get keeps_lift keeps_set_rand adds_push takes_pop takes_pop2 takes_pop_vec
  keeps_then_adds adds_then_keeps takes_then_adds replaces_then_keeps adds_replaces : stack.

Lemma repl_one {f} : replaces (fun _ => 1) (rdo _ <~ pop_1_push f ;; rret (@None event)).
Proof. unfold pop_1_push. auto 8 with stack. Qed.
Lemma repl_two {f} : replaces (fun _ => 2) (rdo _ <~ pop_2_push f ;; rret (@None event)).
Proof. unfold pop_2_push. auto 8 with stack. Qed.
Lemma repl_zero {v} : replaces (fun _ => 0) (rdo _ <~ push v ;; rret (@None event)).
Proof. auto 8 with stack. Qed.
Lemma repl_vec {g : list val -> res val} :
  replaces vec_width (rdo v <~ pop_vec ;; rdo x <~ rlift (g v) ;; rdo _ <~ push x ;; rret (@None event)).
Proof. auto 8 with stack. Qed.
Lemma repl_pos : replaces vec_width (rdo _ <~ pop_vec ;; rdo r <~ rget ;; rdo x <~ rlift (fn_pos (r_col r)) ;;
                                     rdo _ <~ push x ;; rret (@None event)).
Proof. auto 8 with stack. Qed.
Lemma repl_rnd : replaces vec_width
  (rdo v <~ pop_vec ;; rdo r <~ rget ;; rdo sx <~ rlift (fn_rnd (r_rand r) v) ;;
   rdo _ <~ rmod (fun r => set_rand r (fst sx) (r_ent r)) ;; rdo _ <~ push (snd sx) ;; rret (@None event)).
Proof. auto 8 with stack. Qed.
Lemma repl_tab : replaces (fun _ => 1) (rdo v <~ pop ;; rdo r <~ rget ;; rdo x <~ rlift (fn_tab (r_col r) v) ;;
                                         rdo _ <~ push x ;; rret (@None event)).
Proof. auto 8 with stack. Qed.

(* One name of the dispatch in do_builtin: if the call is to s, its handler has the shape L says, and the width L speaks
   of is what the arity table gives for s (both by evaluation of the two finite tables at s).  Otherwise the decided test
   is reduced away, so that the hypothesis shrinks with every name. *)
Tactic Notation "handler" constr(s) uconstr(L) :=
  match goal with
  | H : WF ?r, E : _ ?r = (?r', Ok None) |- context [call_width ?name] =>
      let Q := fresh "Q" in
      destruct (str_eqb name (s2l s)) eqn:Q; [apply str_eqb_eq in Q; subst name; exact (L r r' None H E) | clear Q; cbv beta iota delta [orb] in E]
  end.

(* every handler against the arity table, in the order of the dispatch *)
Local Open Scope string_scope.
Theorem builtin_replaces_its_arguments : forall (O : oracle) name r r',
  WF r -> do_builtin O name r = (r', Ok None) ->
  call_width name (r_stack r) <= lenN (r_stack r) /\ WF r'
  /\ exists v, r_stack r' = v :: skipnN (call_width name (r_stack r)) (r_stack r).
Proof.
  intros O name r r' H E. unfold do_builtin in E. cbv beta zeta in E.
  handler "ABS" repl_one. handler "ASC" repl_one.
  handler "ATN" repl_one. handler "COS" repl_one. handler "EXP" repl_one.
  handler "LOG" repl_one. handler "SIN" repl_one. handler "TAN" repl_one.
  handler "CDBL" repl_one. handler "CHR$" repl_one. handler "CINT" repl_one. handler "CSNG" repl_one.
  handler "DATE$" repl_zero.
  handler "FIX" repl_one. handler "HEX$" repl_one.
  destruct (str_eqb name (s2l "INKEY$")); [discriminate E | cbv iota in E].
  handler "INSTR" repl_vec.
  handler "INT" repl_one. handler "LEFT$" repl_two. handler "LEN" repl_one.
  handler "MID$" repl_vec.
  handler "OCT$" repl_one.
  handler "POS" repl_pos.
  handler "RIGHT$" repl_two.
  handler "RND" repl_rnd.
  handler "SGN" repl_one. handler "SPC" repl_one. handler "SQR" repl_one. handler "STR$" repl_one.
  handler "STRING$" repl_two.
  handler "TAB" repl_tab.
  handler "TIME$" repl_zero.
  handler "VAL" repl_one.
  discriminate E.
Qed.
Local Close Scope string_scope.

(* the statement is not empty: POS(0) and POS on a machine with a return address beneath *)
Definition pos_name : str := s2l "POS".
Definition pos_machine (args : list val) : rt := set_stack rt_default (args ++ [VRet 5]).
Example pos_calls :
  WF (pos_machine [VInt 1; VSng 0]) /\ WF (pos_machine [VInt 0])
  /\ (let '(r', x) := do_builtin dummy_oracle pos_name (pos_machine [VInt 1; VSng 0]) in x = Ok None /\ r_stack r' = [VInt 0; VRet 5])
  /\ (let '(r', x) := do_builtin dummy_oracle pos_name (pos_machine [VInt 0]) in x = Ok None /\ r_stack r' = [VInt 0; VRet 5]).
Proof. repeat split; vm_compute; reflexivity. Qed.
