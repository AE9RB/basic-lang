(* C13 -- what a run cannot see.  No instruction reads the saved continuation address while the continuation slot is empty,
   none reads the trace marker, and none reads the instruction list (only the fetch does): running an instruction on a
   machine in which those three are replaced gives the same result and the same machine with (possibly other) replacements;
   so does the fetch loop, on a run that fetches only where the two instruction lists agree (run_ignores_dead_fields). *)
From BL Require Import Base.Prelude Mach.Val Mach.Compile Mach.Listing Mach.Runtime Proofs.RMFrame Proofs.Dirty.
Local Open Scope N_scope.

Definition with_ops (p : program) (ops : list opcode) : program := with_link p (set_ops (pg_link p) ops).

Definition L (c : N) (t : option N) (ops : list opcode) (r : rt) : rt :=
  set_prog (set_cont_pc (set_tr r t) c) (with_ops (r_prog r) ops).

Lemma l_blind ops : stack_blind (fun c t => L c t ops).
Proof. split; reflexivity. Qed.

Definition lensed {A} (m : RM A) : Prop := forall ops, sim (fun c t => L c t ops) m.

Ltac lens_cbn :=
  cbn [L with_ops with_link set_ops set_prog set_cont_pc set_tr set_pc set_stack_len set_stack set_vars set_col set_state set_cont
       set_entry set_listing set_dirty set_tron set_fns set_rand set_snap set_data_pos
       r_prompt r_listing r_snap r_dirty r_prog r_pc r_tr r_tron r_entry r_stack r_slen r_vars r_state r_cont r_cont_pc r_col r_rand r_fns r_ent
       pg_errors pg_ind_errors pg_direct pg_line pg_link l_cur l_ops l_data l_data_pos l_direct_set l_syms l_unlinked l_whiles fst snd].

(* END saves the address it stops at when it stops inside the program *)
Lemma lensed_do_end : lensed do_end.
Proof.
  intros ops c t r. unfold do_end. lens_cbn. destruct (r_pc r <? r_entry r); lens_cbn;
    match goal with |- context [if ?b then _ else _] => destruct b end;
    first [exists c, t; reflexivity | exists (r_pc r), t; reflexivity].
Qed.

Ltac lens_walk := lazymatch goal with |- lensed _ => intros ? | _ => idtac end;
  rm_walk uconstr:(sim_closed _)
    ltac:(idtac; first [ apply lensed_do_end
                       | sim_prim uconstr:(l_blind _) sim_side ]).

Section Ops.
Variable O : oracle.

Lemma lensed_do_next fuel name : lensed (do_next fuel name).
Proof.
  induction fuel as [| f IH]; [cbn [do_next]; lens_walk |].
  intros ops. apply (c_ext _ (sim_closed _) _ _ _ (do_next_eq f name)). lens_walk; apply IH.
Qed.

Theorem lensed_exec_op h op : op <> OpCont -> lensed (exec_op O h op).
Proof.
  intros Hne ops. destruct op; try (exfalso; apply Hne; reflexivity); cbn [exec_op];
    unfold do_def, do_deftype, do_delete, need_unique, do_fn, do_input, do_letmid, do_list, do_load, do_new, do_on, do_print, do_read,
      do_renum, do_swap, do_builtin, pop_1_push, pop_2_push, pop_vec, pop2; lens_walk.
  - (* NEXT: the search depth is read off the stack length *)
    apply (sim_rget _ (fun r => do_next (S (N.to_nat (r_slen r))) s)); [sim_side | intros r0; apply lensed_do_next].
  - apply (closed_fold_push _ (sim_closed _) _ (fun a => a)); [intros ? |]; lens_walk.
Qed.
End Ops.

Section Loop.
Variable O : oracle.

Lemma going_on_keeps_ops : forall h op r r2, exec_op O h op r = (r2, Ok None) ->
  l_ops (pg_link (r_prog r2)) = l_ops (pg_link (r_prog r)).
Proof.
  intros h op r r2 E. destruct (is_edit_op op) eqn:Ee.
  - exfalso. destruct op; try discriminate Ee; cbn [exec_op] in E; unfold rbind in E;
      match type of E with (let (_, _) := ?m r in _) = _ => destruct (m r) as [r' [e | e | |]] end; discriminate E.
  - assert (Hk : Keep (ls_lines (r_listing r)) (r_dirty r) (l_ops (pg_link (r_prog r))) r) by (repeat split).
    pose proof (kp_exec_op O _ _ _ h op (f_equal negb Ee) r Hk) as H. rewrite E in H. cbn [fst snd] in H.
    destruct H as (_ & _ & H). exact H.
Qed.

(* the run being compared against: it fetches below e0 only, does not trace, and its continuation slot is empty *)
Fixpoint safe_run (e0 : N) (fuel : nat) (h : bool) (r : rt) : Prop :=
  match fuel with
  | 0%nat => True
  | S f => r_pc r < e0 /\ r_tron r = false /\ r_cont r = StStopped /\
           match one_op O h r with (r2, Ok None) => safe_run e0 f h r2 | _ => True end
  end.

Lemma nthN_firstnN : forall A (l l' : list A) e i, i < e -> firstnN e l = firstnN e l' -> nthN l i = nthN l' i.
Proof.
  intros A l l' e i Hi H. unfold nthN, firstnN in *.
  rewrite <- (firstn_skipn (N.to_nat e) l), <- (firstn_skipn (N.to_nat e) l'), H.
  destruct (Nat.lt_ge_cases (N.to_nat i) (List.length (firstn (N.to_nat e) l'))) as [Hlt | Hge].
  - rewrite !nth_error_app1 by assumption. reflexivity.
  - assert (Hl : (List.length (firstn (N.to_nat e) l') < N.to_nat e)%nat) by lia.
    rewrite firstn_length in Hl.
    assert (Hs' : skipn (N.to_nat e) l' = nil) by (apply skipn_all2; lia).
    assert (Hlen : List.length (firstn (N.to_nat e) l) = List.length (firstn (N.to_nat e) l')) by (rewrite H; reflexivity).
    rewrite !firstn_length in Hlen.
    assert (Hs : skipn (N.to_nat e) l = nil) by (apply skipn_all2; lia).
    rewrite Hs, Hs'. reflexivity.
Qed.

Theorem run_ignores_dead_fields : forall fuel h e0 r c t ops,
  safe_run e0 fuel h r -> firstnN e0 ops = firstnN e0 (l_ops (pg_link (r_prog r))) ->
  exists c' t', exec_loop O fuel h (L c t ops r) = (L c' t' ops (fst (exec_loop O fuel h r)), snd (exec_loop O fuel h r)).
Proof.
  intros fuel h e0 r c t ops Hsafe Hag.
  apply (sim_exec_loop (fun c t => L c t ops) O
           (fun f h r => safe_run e0 f h r /\ firstnN e0 ops = firstnN e0 (l_ops (pg_link (r_prog r)))));
    [reflexivity | clear | split; assumption].
  intros f h r [(Hpc & Htron & Hcont & Hnext) Hag]. rewrite one_op_eq in Hnext.
  split; [exact Htron |]. split.
  - (* below e0 both machines fetch the same instruction; CONT finds the slot empty *)
    intros c t. rewrite !one_op_eq.
    change (r_pc (L c t ops r)) with (r_pc r). change (l_ops (pg_link (r_prog (L c t ops r)))) with ops.
    rewrite (nthN_firstnN _ ops (l_ops (pg_link (r_prog r))) e0 (r_pc r) Hpc Hag).
    destruct (nthN (l_ops (pg_link (r_prog r))) (r_pc r)) as [op |]; [| exists c, t; reflexivity].
    change (set_pc (L c t ops r) (r_pc r + 1)) with (L c t ops (set_pc r (r_pc r + 1))).
    destruct op; try (apply (lensed_exec_op O); discriminate).
    cbn [exec_op]. unfold do_cont, rbind, rget. change (r_cont (L c t ops (set_pc r (r_pc r + 1)))) with (r_cont r).
    change (r_cont (set_pc r (r_pc r + 1))) with (r_cont r). rewrite Hcont. exists c, t. reflexivity.
  - intros r2 E2. rewrite one_op_eq in E2.
    destruct (nthN (l_ops (pg_link (r_prog r))) (r_pc r)) as [op |]; [| discriminate].
    rewrite E2 in Hnext. split; [exact Hnext |]. rewrite (going_on_keeps_ops h op _ r2 E2). exact Hag.
Qed.

End Loop.
