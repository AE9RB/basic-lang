(* C01 / C10: what instruction sequence a statement compiles to (used for FOR, NEXT and DEF FN; the theorems are in
   Props/C01.v and Props/C10.v).  `emits m code`: on any link
   without DATA and with room for it, the code-generation action m succeeds and appends exactly `code` to the instruction
   list (and no DATA).  The predicate is closed under bind; with one lemma per primitive it reads the sequence of a
   statement off its definition.  FOR: start value, store into the loop variable, limit, step, the variable's name, the
   loop address -- the order in which the manual says they are evaluated ("x, then y, then z"). *)
From BL Require Import Base.Prelude Base.Floats Mach.Val Mach.Ops Mach.Func Mach.Var
     Lang.Token Lang.Lex Lang.Ast Lang.Parse Mach.Compile Proofs.ExprCompile.
From Coq Require Import Lia.
Local Open Scope N_scope.

Definition emits {A} (m : LM A) (code : list opcode) : Prop :=
  forall l, l_data l = [] -> lenN (l_ops l ++ code) <= MAX_POOL ->
    exists l' x, m l = (l', Ok x) /\ l_ops l' = l_ops l ++ code /\ l_data l' = [].

Lemma lenN_app3 {A} (a b c : list A) : lenN (a ++ b) <= lenN (a ++ b ++ c).
Proof. unfold lenN. rewrite !app_length. lia. Qed.

Lemma emits_bind {A B} (m : LM A) (f : A -> LM B) c1 c2 :
  emits m c1 -> (forall a, emits (f a) c2) -> emits (lbind m f) (c1 ++ c2).
Proof.
  intros Hm Hf l Hd Hl. destruct (Hm l Hd) as (l1 & a & E1 & O1 & D1).
  { pose proof (lenN_app3 (l_ops l) c1 c2). lia. }
  destruct (Hf a l1 D1) as (l2 & b & E2 & O2 & D2).
  { rewrite O1, <- app_assoc. exact Hl. }
  exists l2, b. unfold lbind. rewrite E1. split; [exact E2 |]. split; [| exact D2]. rewrite O2, O1, <- app_assoc. reflexivity.
Qed.
Lemma appends_emits {A} (m : LM A) x d code refs : appends m x d code refs -> emits m code.
Proof. intros H l Hd Hl. eexists _, x. split; [exact (H l Hd Hl) |]. split; reflexivity. Qed.

Lemma emits_ret {A} (a : A) : emits (lret a) [].
Proof. exact (appends_emits _ _ _ _ _ (appends_ret a)). Qed.
Lemma emits_push op : emits (l_push op) [op].
Proof. exact (appends_emits _ _ _ _ _ (appends_push op)). Qed.
Lemma emits_append_plain ops : emits (l_append (plain ops)) ops.
Proof. exact (appends_emits _ _ _ _ _ (appends_code ops)). Qed.
Lemma emits_next_symbol : emits l_next_symbol [].
Proof. intros l Hd _. unfold l_next_symbol. eexists _, _. split; [reflexivity |]. cbn [l_ops l_data]. split; [rewrite app_nil_r; reflexivity | exact Hd]. Qed.
Lemma emits_unlink_here c s : emits (l_unlink_here c s) [].
Proof. exact (appends_emits _ _ _ _ _ (appends_unlink c s)). Qed.
Lemma emits_push_symbol s : emits (l_push_symbol s) [].
Proof. intros l Hd _. unfold l_push_symbol. eexists _, tt. split; [reflexivity |]. cbn [l_ops l_data]. split; [rewrite app_nil_r; reflexivity | exact Hd]. Qed.

Lemma emits_eq {A} (m : LM A) c c' : c = c' -> emits m c -> emits m c'.
Proof. intros ->. exact (fun H => H). Qed.

Lemma emits_push_for c : emits (l_push_for c) [OpLiteral (VNext 0)].
Proof.
  unfold l_push_for. eapply emits_eq; [| apply emits_bind; [apply emits_next_symbol | intros nx; apply emits_bind; [apply emits_unlink_here |
    intros _; apply emits_bind; [apply emits_push | intros _; apply emits_push_symbol]]]]. reflexivity.
Qed.

Lemma emits_pop_unary c name : builtin_arity name = None ->
  emits (push_as_pop_unary (mkVI c name link_empty None)) [OpPop name].
Proof.
  intros Hb. unfold push_as_pop_unary, test_for_built_in. cbn [vi_name vi_col vi_len]. rewrite Hb.
  eapply emits_eq; [| apply emits_bind; [apply emits_ret | intros _; apply emits_bind; [apply emits_push | intros _; apply emits_ret]]]. reflexivity.
Qed.

Lemma run_frag_emits (m : LM col) code : emits m code -> lenN code <= MAX_POOL ->
  l_ops (snd (fst (run_frag m))) = code /\ l_data (snd (fst (run_frag m))) = [] /\ snd (run_frag m) = [].
Proof.
  intros Hm Hl. destruct (Hm link_empty eq_refl Hl) as (l' & x & E & O & D). unfold run_frag. rewrite E. cbn [fst snd]. auto.
Qed.

(* a scalar variable as an item of a variable list (NEXT I, J; the parameters of DEF FN) *)
Definition scalar_item (ci : col * ident) : varitem := mkVI (fst ci) (ident_str (snd ci)) link_empty None.

Lemma scalar_vars (vs : list (col * ident)) :
  map fst (map cg_var (map (fun ci => VUnary (fst ci) (snd ci)) vs)) = map scalar_item vs
  /\ flat_map snd (map cg_var (map (fun ci => VUnary (fst ci) (snd ci)) vs)) = [].
Proof.
  induction vs as [| p r [IH1 IH2]]; [split; reflexivity |]. cbn [map flat_map cg_var fst snd app]. rewrite IH1, IH2. split; reflexivity.
Qed.

(* the FOR code as the VM runs it, with the loop address a patched in *)
From BL Require Import Mach.Runtime.
Section RunFor.
Variable O : oracle.

Definition for_code (i : ident) (e1 e2 e3 : expr) (a : N) : list opcode :=
  let_code i e1 ++ postfix e2 ++ postfix e3 ++ [OpLiteral (VStr (ident_str i)); OpLiteral (VNext a)].

(* each push is stated on a machine whose stack has just been set, so that the machine term stays one record deep *)
Lemma pushed_set r s n v : pushed (set_stack_len r s n) v = set_stack_len r (v :: s) (n + 1).
Proof. reflexivity. Qed.

Lemma run_literal h v rest r : r_slen r + 1 <= MAX_POOL -> run_ops O h (OpLiteral v :: rest) r = run_ops O h rest (pushed r v).
Proof. intros H. cbn [run_ops exec_op]. unfold rbind. rewrite (push_ok r v H). reflexivity. Qed.

End RunFor.

(* ---- DEF FN: the parameter count, DEF, a jump over the body, one store per parameter (first parameter first), the body's
   code, RETURN; this is the sequence Proofs/FnBody.v runs ---- *)
(* a result that is used further on, so that the code may depend on it *)
Lemma emits_bind_ret {A B} (a : A) (f : A -> LM B) c : emits (f a) c -> emits (lbind (lret a) f) c.
Proof. intros H l Hd Hl. exact (H l Hd Hl). Qed.

Lemma emits_def_fn c name vars bops : lenN vars <= 32767 ->
  emits (l_push_def_fn c name vars (plain bops))
        ([OpLiteral (VInt (Z.of_N (lenN vars))); OpDef name; OpJump 0] ++ map OpPop vars ++ bops ++ [OpReturn]).
Proof.
  intros Hv. unfold l_push_def_fn, l_push_jump, lift, val_of_len. destruct (N.leb_spec (lenN vars) 32767); [| lia].
  apply emits_bind_ret.
  eapply emits_eq; [| apply emits_bind; [apply emits_push | intros _]; apply emits_bind; [apply emits_push | intros _];
    apply emits_bind; [apply emits_next_symbol | intros skip];
    apply emits_bind; [apply emits_bind; [apply emits_unlink_here | intros _; apply emits_push] | intros _];
    apply emits_bind; [apply (appends_emits _ tt 0 _ (fun _ => [])), (appends_fold (fun v => l_push (OpPop v)) (fun v => [OpPop v]) vars (lret tt) []); [intros v _; apply appends_push | apply appends_ret] | intros _];
    apply emits_bind; [apply emits_append_plain | intros _]; apply emits_bind; [apply emits_push | intros _; apply emits_push_symbol]].
  cbn [app]. rewrite flat_map_single. reflexivity.
Qed.

Theorem def_fn_code : forall c name vars bops,
  lenN vars <= 32767 -> lenN ([OpLiteral (VInt (Z.of_N (lenN vars))); OpDef name; OpJump 0] ++ map OpPop vars ++ bops ++ [OpReturn]) <= MAX_POOL ->
  exists l, l_push_def_fn c name vars (plain bops) link_empty = (l, Ok tt)
    /\ l_ops l = [OpLiteral (VInt (Z.of_N (lenN vars))); OpDef name; OpJump 0] ++ map OpPop vars ++ bops ++ [OpReturn]
    /\ l_data l = [].
Proof.
  intros c name vars bops Hv Hb. destruct (emits_def_fn c name vars bops Hv link_empty eq_refl Hb) as (l & [] & E & Ho & Hd).
  exists l. auto.
Qed.

(* the premises of the FOR / NEXT theorems can be met *)
From Coq Require Import String.
Example shape_premises :
  builtin_arity (s2l "I"%string) = None /\ builtin_arity (s2l "J"%string) = None /\ builtin_arity (s2l "POS"%string) <> None
  /\ pure (EBin (0, 0) BAdd (EUnary (0, 0) (IPlain (s2l "I"%string))) (EInt (0, 0) 2)) = true.
Proof. repeat split; try reflexivity. vm_compute. discriminate. Qed.
