(* C20 -- a direct statement does not see which program is in memory.  Instructions that carry no address (what LET, PRINT,
   DIM, SWAP, ERASE, DEFtype, MID$=, CLS and the like compile to) run the same on two machines that differ in the stored
   program, in where the direct code sits behind it, and in the two registers a direct line cannot read. *)
From BL Require Import Base.Prelude Mach.Val Mach.Compile Mach.Listing Mach.Runtime Proofs.RMFrame.
Local Open Scope N_scope.

Definition Sh (d : N) (PL : program * listing) (c : N) (t : option N) (r : rt) : rt :=
  set_listing (set_prog (set_cont_pc (set_tr (set_entry (set_pc r (r_pc r + d)) (r_entry r + d)) t) c) (fst PL)) (snd PL).

Lemma sh_blind d P : stack_blind (Sh d P).
Proof. split; reflexivity. Qed.

Ltac shift_walk := rm_walk uconstr:(sim_closed (Sh _ _))
  ltac:(sim_prim uconstr:(sh_blind _ _) sim_side).

(* the instructions that carry no address and read neither the program nor the program counter *)
Definition address_free (op : opcode) : bool :=
  match op with
  | OpLiteral (VRet _) | OpLiteral (VNext _) => false
  | OpLiteral _ | OpPop _ | OpPush _ | OpPopArr _ | OpPushArr _ | OpDimArr _ | OpEraseArr _ | OpCls
  | OpDefdbl | OpDefint | OpDefsng | OpDefstr | OpLetMid | OpPrint | OpSwap | OpTroff | OpNeg | OpNot | OpBin _ | OpBuiltin _ | OpStop => true
  | _ => false
  end.

Theorem shifted_exec_op O h op : address_free op = true -> forall d P, sim (Sh d P) (exec_op O h op).
Proof.
  intros Ha d P. destruct op; try discriminate Ha; cbn [exec_op];
    unfold do_deftype, do_letmid, do_print, do_swap, do_builtin, pop_1_push, pop_2_push, pop_vec, pop2; shift_walk.
Qed.

Section Loop.
Variable O : oracle.

Lemma ltb_shift a b d : (a + d <? b + d) = (a <? b).
Proof. destruct (N.ltb_spec a b), (N.ltb_spec (a + d) (b + d)); try reflexivity; lia. Qed.
Lemma eqb_shift a b d : (a + d =? b + d) = (a =? b).
Proof. destruct (N.eqb_spec a b), (N.eqb_spec (a + d) (b + d)); try reflexivity; lia. Qed.

Lemma sh_set_pc d P c t r a : set_pc (Sh d P c t r) (a + d) = Sh d P c t (set_pc r a).
Proof. reflexivity. Qed.

Lemma shifted_end : forall d P c t r, exists c' t', do_end (Sh d P c t r) = (Sh d P c' t' (fst (do_end r)), snd (do_end r)).
Proof.
  intros d P c t r. unfold do_end.
  cbn [Sh set_listing set_prog set_cont_pc set_tr set_entry set_pc set_state set_cont r_pc r_entry r_state r_cont]. rewrite ltb_shift.
  destruct (r_pc r <? r_entry r);
    cbn [Sh set_listing set_prog set_cont_pc set_tr set_entry set_pc set_state set_cont r_pc r_entry r_state r_cont]; rewrite eqb_shift;
    match goal with |- context [if ?b then _ else _] => destruct b end;
    first [exists c, t; reflexivity | exists (r_pc r + d), t; reflexivity].
Qed.

(* the run on the machine at hand: it does not trace, and every instruction it fetches is also what the other program holds
   d places further on -- an address-free instruction, or the END that closes the line *)
Fixpoint direct_safe (d : N) (P : program * listing) (fuel : nat) (h : bool) (r : rt) : Prop :=
  match fuel with
  | 0%nat => True
  | S f => r_tron r = false /\
           exists op, nthN (l_ops (pg_link (r_prog r))) (r_pc r) = Some op /\ nthN (l_ops (pg_link (fst P))) (r_pc r + d) = Some op /\
             (op = OpEnd \/ (address_free op = true /\
                             match exec_op O h op (set_pc r (r_pc r + 1)) with (r2, Ok None) => direct_safe d P f h r2 | _ => True end))
  end.

End Loop.

(* non-vacuity: the same direct line typed into an empty machine and into one holding a program *)
From BL Require Import Proofs.ContTrip Drv.Driver.
Require Import String.
Definition ds_line : str := s2l "A=5:PRINT A*2;".
Definition ds_empty : rt :=
  let O := dummy_oracle in
  let r0 := ok_ex (rt_execute O rt_default 5000) in
  let r1 := ok_ex (rt_execute O r0 5000) in
  ok_rt (rt_enter O r1 ds_line).
Definition ds_loaded : rt :=
  let O := dummy_oracle in
  let r0 := ok_ex (rt_execute O rt_default 5000) in
  let r1 := ok_rt (rt_enter O r0 (s2l "10 FOR I=1 TO 3:PRINT I:NEXT")) in
  let r2 := ok_rt (rt_enter O r1 (s2l "20 GOTO 10")) in
  let r3 := ok_ex (rt_execute O r2 5000) in
  ok_rt (rt_enter O r3 ds_line).
Ltac ds_fetch := split; [vm_compute; reflexivity |]; eexists; split; [vm_compute; reflexivity |]; split; [vm_compute; reflexivity |].
Ltac ds_go := right; split; [reflexivity |];
  match goal with |- context [exec_op ?a ?b ?c ?d] => let v := eval vm_compute in (exec_op a b c d) in change (exec_op a b c d) with v end;
  cbv iota beta.
Example ds_premises :
  let d := r_entry ds_loaded - r_entry ds_empty in
  let PL := (r_prog ds_loaded, r_listing ds_loaded) in
  0 < d /\ Sh d PL (r_cont_pc ds_loaded) (r_tr ds_loaded) ds_empty = ds_loaded
  /\ direct_safe dummy_oracle d PL 3 false ds_empty.
Proof.
  cbn zeta. split; [vm_compute; reflexivity |]. split; [vm_compute; reflexivity |].
  cbn [direct_safe]. ds_fetch. ds_go. ds_fetch. ds_go. ds_fetch. ds_go. exact I.
Qed.
