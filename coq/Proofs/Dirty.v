(* Invariants of the whole machine.  Section Walk carries a pair of predicates I / J through every opcode, the fetch loop and
   the entry points execute / interrupt and the two kinds of reply (the rest of enter: Slicing.rt_enter_cases), given what the
   stack primitives and the editing commands do to them; it is
   used here for the dirty flag, in StoreRt.v for the ordered listing and in StackBound.v for the stack bound.
   C04: the stored program changes only through the editing commands, and every change raises `dirty`; the recompilation
   in enter_direct lowers it. *)
From BL Require Import Base.Prelude Mach.Val Lang.Token Mach.Compile Mach.Listing Mach.Runtime Proofs.RMFrame
     Proofs.Slicing.
Local Open Scope N_scope.

Definition lines_t := list (N * list token).

Definition is_edit_op (op : opcode) : bool :=
  match op with OpDelete | OpRenum | OpNew => true | _ => false end.

Definition edit_view (r : rt) := (r_listing r, r_dirty r, l_ops (pg_link (r_prog r))).

(* what an invariant I owes for the three editing commands; RENUM replaces the listing and raises the flag in two consecutive
   updates, and in between only K holds *)
Record edits_ok (I K : rt -> Prop) : Prop := {
  upd_new : forall r, I r -> I (set_tron (set_state (set_dirty (set_listing r listing_empty) true) StStopped) false);
  upd_delete : forall r a b, I r ->
    I (set_state (set_dirty (set_listing r (with_lines (r_listing r)
         (filter (fun e => negb (in_rng a b (fst e))) (ls_lines (r_listing r))))) true) StStopped);
  upd_renum1 : forall r l a b c, I r -> listing_renum (r_listing r) a b c = Ok l -> K (set_listing r l);
  upd_renum2 : forall r, K r -> I (set_state (set_dirty r true) StStopped)
}.

Section Walk.
Variable O : oracle.
(* I holds between instructions and API calls, J in the state an instruction leaves when it reports an error *)
Variables I J : rt -> Prop.
Hypothesis IJ : forall r, I r -> J r.
Hypothesis frame_I : forall r r', edit_view r' = edit_view r -> r_stack r' = r_stack r -> r_slen r' = r_slen r -> I r -> I r'.
Hypothesis frame_J : forall r r', edit_view r' = edit_view r -> r_stack r' = r_stack r -> r_slen r' = r_slen r -> J r -> J r'.
Hypothesis h_push : forall v, hoare I J (push v).
Hypothesis h_pop : hoare I J pop.
Hypothesis h_pop_n : forall n, hoare I J (pop_n n).
(* a stack cut down by at least one entry (RETURN, the unwinding after an error) or emptied *)
Hypothesis h_shrink : forall r s, J r -> (length s <= pred (length (r_stack r)))%nat -> I (set_stack r s).
Hypothesis h_clear : forall r, J r -> I (fst (do_clear O r)).
Hypothesis h_not_full : forall r, J r -> stack_is_full r = false -> I r.
Hypothesis h_execute_input : forall r, I r -> I (fst (execute_input r)).
(* the opcodes the invariant tolerates; the editing commands among them are argued separately *)
Variable allowed : opcode -> bool.
Hypothesis edit_ok : forall h op, is_edit_op op = true -> allowed op = true -> hoare I J (exec_op O h op).
Hypothesis prog_allowed : forall r op, I r -> nthN (l_ops (pg_link (r_prog r))) (r_pc r) = Some op -> allowed op = true.
Notation HT := (hoare I J).

Ltac fr H :=
  lazymatch type of H with
  | I ?r => first [apply (frame_I r); [reflexivity | reflexivity | reflexivity | exact H]
                  | apply IJ, (frame_I r); [reflexivity | reflexivity | reflexivity | exact H]]
  | J ?r => apply (frame_J r); [reflexivity | reflexivity | reflexivity | exact H]
  end.

Lemma walk_do_end : HT do_end.
Proof. intros r H. unfold do_end. cbn.
  destruct (r_pc r <? r_entry r); cbn; match goal with |- context [if ?c then _ else _] => destruct c end; fr H. Qed.

Lemma return_loop_len : forall s ret first rest ret' addr,
  return_loop s ret first = Some (rest, ret', addr) -> (length rest < length s)%nat.
Proof.
  induction s as [| v s IH]; intros ret first rest ret' addr H; cbn in H; [discriminate |].
  destruct v; try (apply IH in H; cbn; lia). injection H as <- _ _. cbn. lia.
Qed.
Lemma unwind_len : forall s, (length (fst (unwind_input s)) <= pred (length s))%nat.
Proof. induction s as [| v s IH]; cbn; [lia |]. destruct v; cbn; try lia; destruct (unwind_input s); cbn in *; lia. Qed.

(* RETURN cuts the stack down to below the return address it finds *)
Lemma walk_do_return : HT do_return.
Proof.
  apply (c_ext _ (hoare_closed I J IJ) _ _ _ do_return_eq). apply hoare_bind_rget. intros r H.
  destruct (return_loop (r_stack r) None true) as [[[rest ret] addr] |] eqn:E.
  - apply return_loop_len in E.
    assert (H1 : I (set_stack r rest)) by (apply h_shrink; [exact (IJ _ H) | lia]).
    assert (Hpc : HT (rmod (fun r => set_pc r addr))) by (apply hoare_rmod; intros x Hx; fr Hx).
    assert (Hk : HT (match ret with
                     | Some v => rdo _ <~ push v ;; rmod (fun r => set_pc r addr)
                     | None => rmod (fun r => set_pc r addr)
                     end))
      by (destruct ret; [apply (c_bind _ (hoare_closed I J IJ)); [apply h_push | intros _] |]; exact Hpc).
    exact (Hk _ H1).
  - apply IJ, h_shrink; [exact (IJ _ H) | cbn; lia].
Qed.

Ltac inv_prim :=
  let r := fresh "r" in let H := fresh "H" in
  first [ apply h_push | apply h_pop | apply h_pop_n | apply walk_do_return | apply walk_do_end
        | apply (c_bind _ (hoare_closed I J IJ)); [apply hoare_rget | intros ?]
        | apply hoare_rmod; intros r H; first [fr H | apply h_clear, IJ, H]
        | apply hoare_try; [exact IJ | intros r ? H; fr H]
        | apply hoare_with_vars; [exact IJ | intros r ? H; fr H | intros r ? H; fr H]
        | exact IJ | assumption ].
Ltac inv_walk := rm_walk (hoare_closed I J IJ) inv_prim.

Lemma walk_do_next fuel name : HT (do_next fuel name).
Proof.
  induction fuel as [| f IH]; [cbn [do_next]; inv_walk |].
  apply (c_ext _ (hoare_closed I J IJ) _ _ _ (do_next_eq f name)). inv_walk; exact IH.
Qed.

Section Edits.
Variable K : rt -> Prop.
Hypothesis E : edits_ok I K.

Lemma walk_renum_updates a b c :
  HT (rdo _ <~ (fun r => match listing_renum (r_listing r) a b c with
                         | Ok l => (set_listing r l, Ok tt)
                         | Err e => (r, Err e) | Panic => (r, Panic) | Hang => (r, Hang)
                         end) ;;
      rdo _ <~ rmod (fun r => set_state (set_dirty r true) StStopped) ;; do_end).
Proof.
  apply (hoare3_bind I K I J).
  - intros r0 H0. destruct (listing_renum (r_listing r0) a b c) eqn:El; cbn; try exact (IJ _ H0).
    exact (upd_renum1 I K E r0 _ _ _ _ H0 El).
  - intros _. apply (hoare3_bind K I I J); [intros r0 H0; cbn; apply (upd_renum2 I K E); exact H0 | intros _; apply walk_do_end].
Qed.

Lemma walk_edit_ops h op : is_edit_op op = true -> HT (exec_op O h op).
Proof.
  destruct op; try discriminate; intros _; cbn [exec_op]; unfold do_new, do_delete, do_renum, need_unique, pop2;
    rm_walk (hoare_closed I J IJ)
      ltac:(idtac; first [ apply walk_renum_updates | apply (hoare_rmod I J _ (upd_new I K E))
                         | apply hoare_rmod; intros r0 H0; apply (upd_delete I K E); exact H0 | inv_prim ]).
Qed.
End Edits.

Lemma walk_exec_op h op : allowed op = true -> HT (exec_op O h op).
Proof.
  intros Hall. destruct (is_edit_op op) eqn:Ee; [apply edit_ok; assumption |].
  destruct op; try discriminate Ee; cbn [exec_op];
    unfold do_cont, do_def, do_deftype, do_fn, do_input, do_letmid, do_list, do_load, do_on, do_print, do_read, do_swap,
      do_builtin, pop_1_push, pop_2_push, pop_vec, pop2; inv_walk.
  - intros r H. apply walk_do_next. exact H.
  - apply (closed_fold_push _ (hoare_closed I J IJ) _ (fun a => a)); [exact h_push | inv_walk].
Qed.

Lemma walk_one_op h : HT (one_op O h).
Proof.
  unfold one_op. apply hoare_bind_rget. intros r H.
  destruct (nthN (l_ops (pg_link (r_prog r))) (r_pc r)) as [op |] eqn:Eop; [| exact (IJ _ H)].
  pose proof (prog_allowed r op H Eop) as Hall.
  assert (Hm : HT (rdo _ <~ rmod (fun r => set_pc r (r_pc r + 1)) ;; exec_op O h op))
    by (apply (c_bind _ (hoare_closed I J IJ)); [inv_walk | intros _; apply walk_exec_op; exact Hall]).
  exact (Hm r H).
Qed.

Lemma walk_exec_loop fuel h : HT (exec_loop O fuel h).
Proof.
  induction fuel as [| f IH]; cbn [exec_loop];
    rm_walk (hoare_closed I J IJ) ltac:(idtac; first [apply walk_one_op | exact IH | inv_prim]).
Qed.

Lemma walk_ready_prompt r : I r -> I (fst (ready_prompt r)).
Proof. intros H. unfold ready_prompt. destruct (negb (r_entry r =? 0)); [| exact H]. cbn.
  destruct (0 <? r_col r); cbn; fr H. Qed.

Lemma walk_before_loop r r1 early : I r -> before_loop r = Ok (r1, early) -> I r1.
Proof.
  intros H. unfold before_loop. destruct (r_state r).
  - intros E; injection E as <- _; fr H.
  - generalize (walk_ready_prompt r H). destruct (ready_prompt r) as [r2 [ev |]]; cbn; intros H2 E; injection E as <- _; exact H2.
  - destruct (list_line (r_listing r) a b) as [[[[text cols] [a' b']] |] | | |]; cbn; intros E; try discriminate; injection E as <- _; fr H.
  - intros E; injection E as <- _; exact H.
  - destruct (ls_dir_errors (r_listing r)); intros E; injection E as <- _; [exact H | fr H].
  - pose proof (h_execute_input r H) as Hx.
    destruct (execute_input r) as [r2 [ev | er | |]]; cbn in Hx; intros E; try discriminate; injection E as <- _; [exact Hx | fr Hx].
  - intros E; injection E as <- _; fr H.
  - destruct (ls_dir_errors (r_listing r)); intros E; injection E as <- _; [exact H | fr H].
  - intros E; injection E as <- _; fr H.
  - intros E; injection E as <- _; exact H.
Qed.

Lemma walk_after_ok r2 ev r' e : I r2 -> after_loop (r2, Ok ev) = Ok (r', e) -> I r'.
Proof.
  intros H2 E. cbn [after_loop] in E.
  generalize (walk_ready_prompt r2 H2). destruct (ready_prompt r2) as [r3 [e3 |]]; cbn [fst]; intros H3.
  all: destruct (r_state r2); try (injection E as <- _; exact H2); destruct ev; injection E as <- _; assumption.
Qed.

Lemma walk_after_err r2 er r' e : J r2 -> after_loop (r2, Err er) = Ok (r', e) -> I r'.
Proof.
  intros H2 E. cbn [after_loop] in E. assert (Hu : I (set_stack r2 (fst (unwind_input (r_stack r2))))) by (apply h_shrink; [exact H2 | apply unwind_len]).
  assert (He : I (set_stack r2 [])) by (apply h_shrink; [exact H2 | cbn; lia]).
  destruct (r_state r2); try (destruct (unwind_input (r_stack r2)) as [s [a |]]; injection E as <- _; fr Hu);
    injection E as <- _; unfold save_error; cbn [r_entry r_pc set_cont_pc set_cont set_state];
    (destruct (r_entry r2 <=? r_pc r2); cbn [orb]; [fr He |]);
    change (stack_is_full (set_cont_pc _ _)) with (stack_is_full r2);
    (destruct (stack_is_full r2) eqn:Ef; [fr He | pose proof (h_not_full r2 H2 Ef) as Hn; fr Hn]).
Qed.

Lemma walk_rt_execute r n r' e : I r -> rt_execute O r n = Ok (r', e) -> I r'.
Proof.
  intros H. rewrite execute_eq. destruct (before_loop r) as [[r1 early] | | |] eqn:Epre; try discriminate.
  pose proof (walk_before_loop r r1 early H Epre) as Hpre. cbn [bind].
  destruct early as [ev |]; [intros E; injection E as <- _; exact Hpre |].
  destruct (r_state r1) eqn:Est;
    try (destruct (0 <? r_col r1); intros E; injection E as <- _; fr Hpre).
  all: generalize (walk_exec_loop (N.to_nat n) (match ls_ind_errors (r_listing r1) with [] => false | _ => true end) r1 Hpre);
       destruct (exec_loop O (N.to_nat n) (match ls_ind_errors (r_listing r1) with [] => false | _ => true end) r1) as [r2 [ev | er | |]];
       cbn [fst snd]; intros H2 E; try discriminate;
       [exact (walk_after_ok _ _ _ _ H2 E) | exact (walk_after_err _ _ _ _ H2 E)].
Qed.

Lemma walk_rt_interrupt r : I r -> I (rt_interrupt r).
Proof.
  intros H. unfold rt_interrupt. match goal with |- context [if ?c then _ else _] => destruct c end; [| fr H].
  assert (He : I (set_stack r [])) by (apply h_shrink; [exact (IJ _ H) | cbn; lia]). fr He.
Qed.

(* stated about a variable: with `fst (do_clear O r)` in its place the two sides of the frame condition are large terms that
   differ, which conversion finds out only after normalising both *)
Lemma walk_set_state x st : I x -> I (set_state x st).
Proof. intros H. fr H. Qed.

Lemma walk_enter_input r s : I r -> I (enter_input O r s).
Proof.
  intros H. unfold enter_input. destruct (MAX_LINE_LEN <? utf8_len s); [fr H |].
  assert (Hc : forall r0 st, J r0 -> I (set_state (fst (do_clear O r0)) st)) by (intros r0 st H0; apply walk_set_state, h_clear, H0).
  destruct (r_stack r) as [| v st]; [apply Hc, IJ, H |].
  destruct v; try (apply Hc, IJ, H).
  match goal with |- I (if ?c then _ else _) => destruct c end; [fr H |].
  match goal with |- I (match ?m r with _ => _ end) => assert (Hm : HT m) end.
  { inv_walk. apply (closed_fold_push _ (hoare_closed I J IJ) _ (fun f => VStr f)); [exact h_push | inv_walk]. }
  specialize (Hm r H).
  match goal with |- I (match ?m r with _ => _ end) => destruct (m r) as [r2 [u | e | |]] end; cbn [fst snd] in Hm;
    [exact Hm | apply Hc, Hm | apply h_clear, Hm | apply h_clear, Hm].
Qed.

Lemma walk_enter_inkey r s : I r -> I (enter_inkey O r s).
Proof.
  intros H. unfold enter_inkey. cbv zeta.
  match goal with |- context [push ?v r] => pose proof (h_push v r H) as H2; destruct (push v r) as [r2 [u | e | |]] end;
    cbn [fst snd] in H2; apply walk_set_state; first [exact H2 | apply h_clear, H2].
Qed.

End Walk.

(* invariants that only read the listing, the flag and the compiled code: the stack hypotheses of Walk hold for them *)

Section Frame.
Variable O : oracle.
Variable T : rt -> Prop.
Hypothesis frame_T : forall r r', r_listing r' = r_listing r -> r_dirty r' = r_dirty r ->
  l_ops (pg_link (r_prog r')) = l_ops (pg_link (r_prog r)) -> T r -> T r'.
Variable allowed : opcode -> bool.
Hypothesis edit_ok : forall h op, is_edit_op op = true -> allowed op = true -> hoare T T (exec_op O h op).
Hypothesis prog_allowed : forall r op, T r -> nthN (l_ops (pg_link (r_prog r))) (r_pc r) = Some op -> allowed op = true.

Lemma frame_view : forall r r', edit_view r' = edit_view r -> r_stack r' = r_stack r -> r_slen r' = r_slen r -> T r -> T r'.
Proof. intros r r' E _ _. injection E as E1 E2 E3. apply frame_T; assumption. Qed.

Ltac frT H := match type of H with T ?r => apply (frame_T r); [reflexivity | reflexivity | reflexivity | exact H] end.

Lemma fr_push v : hoare T T (push v).
Proof. intros r H. rewrite push_eq. cbn [fst snd]. destruct (MAX_POOL <? r_slen r + 1); frT H. Qed.
Lemma fr_pop : hoare T T pop.
Proof. intros r H. unfold pop. destruct (r_stack r); cbn; [exact H |]. frT H. Qed.
Lemma fr_pop_n n : hoare T T (pop_n n).
Proof. intros r H. unfold pop_n. destruct ((n <? 0)%Z || (r_slen r <? Z.to_N n)); cbn; [exact H |]. frT H. Qed.
Lemma fr_set_stack r s : T r -> (length s <= pred (length (r_stack r)))%nat -> T (set_stack r s).
Proof. intros H _. frT H. Qed.
Lemma fr_clear r : T r -> T (fst (do_clear O r)).
Proof. intros H. frT H. Qed.
Lemma fr_execute_input r : T r -> T (fst (execute_input r)).
Proof.
  intros H. assert (Hx : hoare T T execute_input).
  { unfold execute_input.
    rm_walk (hoare_closed T T (fun _ H => H))
      ltac:(idtac; first [ apply fr_push | apply fr_pop | apply (c_bind _ (hoare_closed T T (fun _ H => H))); [apply hoare_rget | intros ?]
                         | apply hoare_rmod; let r := fresh in let H := fresh in intros r H; frT H ]). }
  specialize (Hx r H). destruct (snd (execute_input r)); exact Hx.
Qed.

Hint Resolve frame_view fr_push fr_pop fr_pop_n fr_set_stack fr_clear fr_execute_input : fr.

Lemma tr_exec_op h op : allowed op = true -> hoare T T (exec_op O h op).
Proof. intros. eapply walk_exec_op; eauto with fr. Qed.
Lemma tr_rt_execute r n r' e : T r -> rt_execute O r n = Ok (r', e) -> T r'.
Proof. intros. eapply walk_rt_execute with (J := T); eauto with fr. Qed.
Lemma tr_enter_input r s : T r -> T (enter_input O r s).
Proof. intros. eapply walk_enter_input with (J := T); eauto with fr. Qed.
Lemma tr_enter_inkey r s : T r -> T (enter_inkey O r s).
Proof. intros. eapply walk_enter_inkey with (J := T); eauto with fr. Qed.

Lemma tr_edit_ops K h op : edits_ok T K -> is_edit_op op = true -> hoare T T (exec_op O h op).
Proof. intros. eapply walk_edit_ops with (K := K); eauto with fr. Qed.

Lemma tr_rt_interrupt r : T r -> T (rt_interrupt r).
Proof. intros H. unfold rt_interrupt. match goal with |- context [if ?c then _ else _] => destruct c end; frT H. Qed.

End Frame.

(* relative to a starting point (lines L, flag d0): the flag never falls, and the lines are still L unless it is up *)
Definition Track (L : lines_t) (d0 : bool) (r : rt) : Prop :=
  (d0 = true -> r_dirty r = true) /\ (ls_lines (r_listing r) = L \/ r_dirty r = true).

Lemma track_start r : Track (ls_lines (r_listing r)) (r_dirty r) r.
Proof. split; auto. Qed.

Section Track.
Variable O : oracle.
Variable L : lines_t.
Variable d0 : bool.
Notation T := (Track L d0).

Lemma track_frame : forall r r', r_listing r' = r_listing r -> r_dirty r' = r_dirty r ->
  l_ops (pg_link (r_prog r')) = l_ops (pg_link (r_prog r)) -> T r -> T r'.
Proof. intros r r' E1 E2 _ [H1 H2]. unfold Track. rewrite E1, E2. split; assumption. Qed.

Definition all_ops (_ : opcode) := true.

Lemma track_edit_ok : forall h op, is_edit_op op = true -> all_ops op = true -> hoare T T (exec_op O h op).
Proof.
  intros h op He _. apply (tr_edit_ops O T track_frame (fun r => d0 = true -> r_dirty r = true)); [split | exact He].
  - intros r H. split; cbn; auto.
  - intros r a b H. split; cbn; auto.
  - intros r l a b c H _. cbn. exact (proj1 H).
  - intros r H. split; cbn; auto.
Qed.

Definition tk_execute := tr_rt_execute O T track_frame all_ops track_edit_ok (fun _ _ _ _ => eq_refl).
Definition tk_interrupt := tr_rt_interrupt T track_frame.
Definition tk_enter_input := tr_enter_input O T track_frame.
Definition tk_enter_inkey := tr_enter_inkey O T track_frame.

(* a numbered line: the lines change only together with the flag; deleting an absent line changes neither *)
Lemma lines_remove_absent ls n : lines_has ls n = false -> lines_remove ls n = ls.
Proof.
  unfold lines_has, lines_remove. induction ls as [| e ls IH]; cbn; [reflexivity |].
  destruct (fst e =? n); cbn; [discriminate |]. intros Hh. rewrite IH by exact Hh. reflexivity.
Qed.

Lemma tk_enter_indirect r l r' : T r -> enter_indirect r l = Ok r' -> T r'.
Proof.
  intros [H1 H2] E. unfold enter_indirect in E. destruct (fst l) as [n |]; [| injection E as <-; split; cbn; assumption].
  destruct (snd l) as [| t ts]; injection E as <-; [| split; cbn; auto].
  split; cbn.
  - intros Hd. rewrite (H1 Hd). reflexivity.
  - destruct (r_dirty r); [right; reflexivity |]. cbn.
    destruct (lines_has (ls_lines (r_listing r)) n) eqn:Eh; [right; reflexivity |].
    left. rewrite lines_remove_absent by exact Eh. destruct H2 as [H2 | H2]; [exact H2 | discriminate].
Qed.

End Track.

Theorem dirty_tracks_edits_indirect : forall r l r', enter_indirect r l = Ok r' ->
  (r_dirty r = true -> r_dirty r' = true) /\ (ls_lines (r_listing r') = ls_lines (r_listing r) \/ r_dirty r' = true).
Proof. intros r l r' E. exact (tk_enter_indirect _ _ r l r' (track_start r) E). Qed.

Theorem dirty_tracks_edits_interrupt : forall r,
  r_dirty (rt_interrupt r) = r_dirty r /\ r_listing (rt_interrupt r) = r_listing r.
Proof. intros r. unfold rt_interrupt. match goal with |- context [if ?c then _ else _] => destruct c end; split; reflexivity. Qed.

Definition Keep (L : lines_t) (d : bool) (OPS : list opcode) (r : rt) : Prop :=
  ls_lines (r_listing r) = L /\ r_dirty r = d /\ l_ops (pg_link (r_prog r)) = OPS.

Definition not_edit (op : opcode) : bool := negb (is_edit_op op).

Section Keep.
Variable O : oracle.
Variable L : lines_t.
Variable d : bool.
Variable OPS : list opcode.
Hypothesis no_edit : forallb not_edit OPS = true.
Notation T := (Keep L d OPS).

Lemma keep_frame : forall r r', r_listing r' = r_listing r -> r_dirty r' = r_dirty r ->
  l_ops (pg_link (r_prog r')) = l_ops (pg_link (r_prog r)) -> T r -> T r'.
Proof. intros r r' E1 E2 E3 (H1 & H2 & H3). unfold Keep. rewrite E1, E2, E3. repeat split; assumption. Qed.

Lemma keep_edit_ok : forall h op, is_edit_op op = true -> not_edit op = true -> hoare T T (exec_op O h op).
Proof. intros h op He Hn. unfold not_edit in Hn. rewrite He in Hn. discriminate. Qed.

Lemma keep_prog_allowed : forall r op, T r -> nthN (l_ops (pg_link (r_prog r))) (r_pc r) = Some op -> not_edit op = true.
Proof.
  intros r op (_ & _ & H3) Hn. rewrite H3 in Hn. unfold nthN in Hn. apply nth_error_In in Hn.
  rewrite forallb_forall in no_edit. apply no_edit. exact Hn.
Qed.

Definition kp_execute := tr_rt_execute O T keep_frame not_edit keep_edit_ok keep_prog_allowed.
Definition kp_exec_op := tr_exec_op O T keep_frame not_edit keep_edit_ok.
End Keep.

Theorem noedit_execute_frame : forall O r n r' e,
  forallb not_edit (l_ops (pg_link (r_prog r))) = true ->
  rt_execute O r n = Ok (r', e) ->
  ls_lines (r_listing r') = ls_lines (r_listing r) /\ r_dirty r' = r_dirty r
  /\ l_ops (pg_link (r_prog r')) = l_ops (pg_link (r_prog r)).
Proof.
  intros O r n r' e Hno E.
  exact (kp_execute O _ _ _ Hno r n r' e (conj eq_refl (conj eq_refl eq_refl)) E).
Qed.

Theorem direct_keeps_lines : forall r l,
  ls_lines (r_listing (enter_direct r l)) = ls_lines (r_listing r) /\ r_dirty (enter_direct r l) = false.
Proof. intros r l. unfold enter_direct. destruct (r_dirty r) eqn:Ed; cbn; auto. Qed.
