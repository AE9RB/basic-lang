(* C14 -- what RENUM replaces.  The ranges the renumbering visitor collects from a parsed line are, each of them, exactly the
   range of one number token of that line in its listed text (Proofs/ParseCols.v gives the parser's half): RENUM rewrites
   digits of line-number operands and nothing else. *)
From BL Require Import Base.Prelude Base.Floats Lang.Token Lang.Ast Mach.Listing Proofs.DataSeg Proofs.ParseCols.
Local Open Scope N_scope.

Section RenumCols.
Variable all : list token.
Variable ch : changes.

Lemma operand_cols : forall e c nn, In (c, nn) (renum_operand ch e) ->
  match e with ESng c0 _ | EDbl c0 _ | EInt c0 _ => c = c0 /\ fst c0 <> snd c0 | _ => False end.
Proof.
  intros e c nn H. unfold renum_operand in H.
  assert (G : forall c0 tb n, In (c, nn) (if tb || (fst c0 =? snd c0) || (n <? 0)%Z then []
                                          else match ch_get ch (Z.to_N (Z.max 0 n)) with Some nn0 => [(c0, nn0)] | None => [] end) ->
                              c = c0 /\ fst c0 <> snd c0).
  { intros c0 tb n Hin. destruct tb; [cbn in Hin; contradiction |]. cbn [orb] in Hin.
    destruct (N.eqb_spec (fst c0) (snd c0)); [cbn in Hin; contradiction |]. cbn [orb] in Hin.
    destruct (n <? 0)%Z; [cbn in Hin; contradiction |]. destruct (ch_get ch (Z.to_N (Z.max 0 n))) as [nn0 |]; [| cbn in Hin; contradiction].
    destruct Hin as [Hin | Hin]; [| contradiction]. injection Hin as <- _. split; [reflexivity | assumption]. }
  destruct e; try contradiction.
  - destruct (f32_is_nan bits); exact (G _ _ _ H).
  - destruct (f64_is_nan bits); exact (G _ _ _ H).
  - exact (G _ _ _ H).
Qed.

(* the marker for "no operand" is a number, is not too big, and is negative *)
Lemma marker_values :
  f32_is_nan (f32_of_Z (-1)) = false /\ f32_lt (f32_of_Z 65529) (f32_of_Z (-1)) = false /\ f32_to_Z (f32_trunc (f32_of_Z (-1))) = (-1)%Z.
Proof. vm_compute. repeat split. Qed.

Lemma marker_is_skipped : forall c, renum_operand ch (ESng c (f32_of_Z (-1))) = [].
Proof.
  intros c. unfold renum_operand. destruct marker_values as (-> & -> & ->). cbn [orb]. rewrite orb_true_r. reflexivity.
Qed.

Lemma none_marker : renum_operand ch (ESng (0, 1) (f32_of_Z (-1))) = [].
Proof. exact (marker_is_skipped (0, 1)). Qed.

Lemma operand_range : forall e c nn, good_lnum all e \/ good_target all e \/ good_end all e ->
  In (c, nn) (renum_operand ch e) -> num_range all c.
Proof.
  intros e c nn Hg H. pose proof (operand_cols e c nn H) as Hc.
  destruct e as [| | c0 b | c0 b | c0 z | | | |]; try contradiction; [| destruct Hg as [[] | [[] | []]] ..].
  destruct Hc as [-> Hne].
  destruct Hg as [Hg | [[-> | Hg] | [Hg | Hg]]]; try exact Hg; [rewrite marker_is_skipped in H |]; contradiction.
Qed.

Lemma stmt_cols : forall s c nn, good_stmt all s -> In (c, nn) (renum_visit ch s) -> num_range all c.
Proof.
  induction s as [c0 p th el IHth IHel | s Hs] using stmt_ind2; intros c nn Hg H.
  - apply good_if in Hg. rewrite !good_stmts_Forall in Hg. rewrite Forall_forall in IHth, IHel. destruct Hg as [Gth Gel].
    rewrite Forall_forall in Gth, Gel. cbn [renum_visit] in H.
    apply in_app_or in H. destruct H as [H | H]; apply in_flat_map in H; destruct H as (x & Hx & Hin).
    + exact (IHth x Hx c nn (Gth x Hx) Hin).
    + exact (IHel x Hx c nn (Gel x Hx) Hin).
  - destruct s; try contradiction; cbn [renum_visit good_stmt] in *; try contradiction.
    + destruct Hg as [Ga Gb]. apply in_app_or in H. destruct H as [H | H]; [exact (operand_range _ _ _ (or_intror (or_intror Ga)) H) | exact (operand_range _ _ _ (or_intror (or_intror Gb)) H)].
    + exact (operand_range _ _ _ (or_introl Hg) H).
    + exact (operand_range _ _ _ (or_introl Hg) H).
    + destruct Hg as [Ga Gb]. apply in_app_or in H. destruct H as [H | H]; [exact (operand_range _ _ _ (or_intror (or_intror Ga)) H) | exact (operand_range _ _ _ (or_intror (or_intror Gb)) H)].
    + apply in_flat_map in H. destruct H as [e0 [He Hin]]. rewrite Forall_forall in Hg. exact (operand_range _ _ _ (or_introl (Hg e0 He)) Hin).
    + apply in_flat_map in H. destruct H as [e0 [He Hin]]. rewrite Forall_forall in Hg. exact (operand_range _ _ _ (or_introl (Hg e0 He)) Hin).
    + exact (operand_range _ _ _ (or_intror (or_introl Hg)) H).
    + exact (operand_range _ _ _ (or_intror (or_introl Hg)) H).
Qed.
End RenumCols.

Lemma firstnN_skipnN_app : forall (a b c : str), firstnN (lenN b) (skipnN (lenN a) (a ++ b ++ c)) = b.
Proof.
  intros a b c. unfold firstnN, skipnN, lenN. rewrite !Nat2N.id. rewrite skipn_app, skipn_all, Nat.sub_diag. cbn [skipn app].
  rewrite firstn_app, firstn_all, Nat.sub_diag. cbn [firstn]. apply app_nil_r.
Qed.
