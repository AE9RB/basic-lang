(* C15: the stored program is an ordered finite map from line numbers to texts. *)
From BL Require Import Base.Prelude Lang.Token Mach.Listing.
Local Open Scope N_scope.

Definition lines_t := list (N * list token).

(* the abstract map behind a list of lines *)
Fixpoint get (ls : lines_t) (n : N) : option (list token) :=
  match ls with
  | [] => None
  | (m, t) :: r => if m =? n then Some t else get r n
  end.

Inductive asc : lines_t -> Prop :=
| asc_nil : asc []
| asc_one : forall e, asc [e]
| asc_cons : forall a b r, fst a < fst b -> asc (b :: r) -> asc (a :: b :: r).

Lemma asc_tail a r : asc (a :: r) -> asc r.
Proof. intros H. inversion H; subst; [constructor | assumption]. Qed.

Lemma asc_lower a r : asc (a :: r) -> forall e, In e r -> fst a < fst e.
Proof.
  revert a. induction r as [| b r IH]; intros a H e Hin; [destruct Hin |].
  inversion H as [| | a' b' r' Hlt Hr]; subst. destruct Hin as [<- | Hin]; [exact Hlt |].
  specialize (IH b Hr e Hin). lia.
Qed.

Lemma get_not_below a r n : asc (a :: r) -> n <= fst a -> get r n = None.
Proof.
  intros H Hn. pose proof (asc_lower a r H) as Hl. clear H.
  induction r as [| [m t] r IH]; cbn; [reflexivity |].
  assert (Hm : fst a < m) by (apply (Hl (m, t)); left; reflexivity).
  destruct (N.eqb_spec m n); [lia |]. apply IH. intros e He. apply Hl. right. exact He.
Qed.

Lemma get_In ls n t : get ls n = Some t -> In (n, t) ls.
Proof.
  induction ls as [| [m u] r IH]; cbn; [discriminate |].
  destruct (N.eqb_spec m n) as [-> | _]; [intros E; injection E as ->; left; reflexivity | intros E; right; auto].
Qed.

Lemma In_get ls n t : asc ls -> In (n, t) ls -> get ls n = Some t.
Proof.
  induction ls as [| [m u] r IH]; intros Ha Hin; [destruct Hin |]. cbn.
  destruct Hin as [E | Hin]; [injection E as -> ->; rewrite N.eqb_refl; reflexivity |].
  pose proof (asc_lower _ _ Ha (n, t) Hin) as Hlt. cbn in Hlt.
  destruct (N.eqb_spec m n); [lia |]. apply IH; [exact (asc_tail _ _ Ha) | exact Hin].
Qed.

(* a numbered line inserts or replaces; nothing else changes *)
Lemma insert_asc ls n t : asc ls -> asc (lines_insert ls n t).
Proof.
  induction ls as [| [m u] r IH]; intros Ha; cbn; [constructor |].
  destruct (N.ltb_spec n m) as [Hlt | Hge]; [constructor; [exact Hlt | exact Ha] |].
  destruct (N.eqb_spec n m) as [-> | Hne].
  - destruct r as [| b r']; [constructor |]. inversion Ha; subst. constructor; assumption.
  - specialize (IH (asc_tail _ _ Ha)).
    destruct r as [| [m2 u2] r']; cbn in *; [constructor; [cbn; lia | constructor] |].
    inversion Ha as [| | ? ? ? Hlt Hr]; subst. cbn in Hlt.
    destruct (N.ltb_spec n m2); [constructor; [cbn; lia | exact IH] |].
    destruct (N.eqb_spec n m2); [constructor; [cbn; lia | exact IH] |].
    constructor; [exact Hlt | exact IH].
Qed.

Lemma get_insert ls n t k : asc ls -> get (lines_insert ls n t) k = if n =? k then Some t else get ls k.
Proof.
  induction ls as [| [m u] r IH]; intros Ha; cbn.
  - destruct (n =? k); reflexivity.
  - destruct (N.ltb_spec n m) as [Hlt | Hge]; cbn; [reflexivity |].
    destruct (N.eqb_spec n m) as [-> | Hne]; cbn.
    + destruct (N.eqb_spec m k); reflexivity.
    + rewrite (IH (asc_tail _ _ Ha)). destruct (N.eqb_spec m k) as [-> | _]; [| reflexivity].
      destruct (N.eqb_spec n k); [lia | reflexivity].
Qed.

(* a bare number deletes; nothing else changes *)
Lemma filter_asc (f : N * list token -> bool) ls : asc ls -> asc (filter f ls).
Proof.
  induction ls as [| a r IH]; intros Ha; cbn; [constructor |].
  specialize (IH (asc_tail _ _ Ha)). destruct (f a); [| exact IH].
  pose proof (asc_lower _ _ Ha) as Hl.
  destruct (filter f r) as [| b r'] eqn:Ef; [constructor |].
  constructor; [| exact IH]. apply Hl. apply (proj1 (filter_In f b r)). rewrite Ef. left. reflexivity.
Qed.

Lemma get_filter (p : N -> bool) ls k :
  get (filter (fun e => p (fst e)) ls) k = if p k then get ls k else None.
Proof.
  induction ls as [| [m u] r IH]; cbn; [destruct (p k); reflexivity |].
  destruct (p m) eqn:Epm; cbn.
  - destruct (N.eqb_spec m k) as [-> | _]; [rewrite Epm; reflexivity | exact IH].
  - rewrite IH. destruct (N.eqb_spec m k) as [-> | _]; [rewrite Epm; reflexivity | reflexivity].
Qed.

Lemma remove_asc ls n : asc ls -> asc (lines_remove ls n).
Proof. apply filter_asc. Qed.

Lemma get_remove ls n k : get (lines_remove ls n) k = if n =? k then None else get ls k.
Proof.
  unfold lines_remove. rewrite (get_filter (fun m => negb (m =? n)) ls k).
  rewrite (N.eqb_sym k n). destruct (n =? k); reflexivity.
Qed.

(* DELETE a-b removes exactly the lines inside the inclusive range *)
Definition delete_range (ls : lines_t) (a b : N) : lines_t := filter (fun e => negb (in_rng a b (fst e))) ls.

Lemma get_delete_range ls a b k : get (delete_range ls a b) k = if in_rng a b k then None else get ls k.
Proof. unfold delete_range. rewrite (get_filter (fun m => negb (in_rng a b m)) ls k). destruct (in_rng a b k); reflexivity. Qed.

(* LIST a-b shows exactly the lines inside the inclusive range, in ascending order *)
Definition in_range_lines (ls : lines_t) (a b : N) : lines_t := filter (fun e => in_rng a b (fst e)) ls.

(* the runtime's LIST state machine run to its end: each step shows the first line of the range and goes on with the range that
   remains (list_texts below is the same through the model's own list_line) *)
Fixpoint list_all (fuel : nat) (l : listing) (a b : N) : res (list (N * list token)) :=
  match fuel with
  | O => Ok []
  | S f =>
      if b <? a then Panic else
      match filter (fun e => in_rng a b (fst e)) (ls_lines l) with
      | [] => Ok []
      | (n, toks) :: _ =>
          let '(a', b') := if n <? b then (n + 1, b) else (65530, 65530) in
          do more <- list_all f l a' b'; Ok ((n, toks) :: more)
      end
  end.

Lemma filter_ext_in' {A} (f g : A -> bool) l : (forall x, In x l -> f x = g x) -> filter f l = filter g l.
Proof. apply filter_ext_in. Qed.

Lemma filter_none {A} (p : A -> bool) l : (forall x, In x l -> p x = false) -> filter p l = [].
Proof. induction l as [| x l IH]; intros H; cbn; [reflexivity |]. rewrite (H x (or_introl eq_refl)). apply IH. intros y Hy. apply H. right. exact Hy. Qed.

Lemma filter_asc_tail (p : N * list token -> bool) ls x rest : asc ls -> filter p ls = x :: rest ->
  rest = filter (fun e => p e && (fst x <? fst e)) ls.
Proof.
  induction ls as [| e r IH]; intros Ha E; cbn in *; [discriminate |].
  destruct (p e); cbn; [| exact (IH (asc_tail _ _ Ha) E)].
  injection E as <- <-. rewrite N.ltb_irrefl. apply filter_ext_in'. intros y Hy.
  rewrite (proj2 (N.ltb_lt _ _) (asc_lower _ _ Ha y Hy)). symmetry. apply andb_true_r.
Qed.

Lemma in_rng_above a b n k : a <= n -> in_rng a b k && (n <? k) = in_rng (n + 1) b k.
Proof.
  intros H. unfold in_rng.
  destruct (N.leb_spec a k), (N.leb_spec k b), (N.ltb_spec n k), (N.leb_spec (n + 1) k); cbn; try reflexivity; lia.
Qed.

Lemma list_all_spec : forall fuel l a b, asc (ls_lines l) -> (forall e, In e (ls_lines l) -> fst e <= 65529) ->
  a <= b -> (length (in_range_lines (ls_lines l) a b) < fuel)%nat ->
  list_all fuel l a b = Ok (in_range_lines (ls_lines l) a b).
Proof.
  induction fuel as [| f IH]; intros l a b Ha Hmax Hab Hf; [lia |].
  cbn [list_all]. destruct (N.ltb_spec b a); [lia |]. unfold in_range_lines in *.
  destruct (filter (fun e => in_rng a b (fst e)) (ls_lines l)) as [| [n toks] rest] eqn:Ef; [reflexivity |].
  assert (Hn : in_rng a b n = true).
  { assert (Hin : In (n, toks) (filter (fun e => in_rng a b (fst e)) (ls_lines l))) by (rewrite Ef; left; reflexivity).
    apply filter_In in Hin. exact (proj2 Hin). }
  unfold in_rng in Hn. apply andb_prop in Hn. destruct Hn as [Hn1 Hn2]. apply N.leb_le in Hn1, Hn2.
  assert (Er : rest = filter (fun e => in_rng (n + 1) b (fst e)) (ls_lines l)).
  { rewrite (filter_asc_tail _ _ _ _ Ha Ef). apply filter_ext_in'. intros e _. apply in_rng_above. exact Hn1. }
  cbn [length] in Hf. destruct (N.ltb_spec n b) as [Hnb | Hnb].
  - rewrite (IH l (n + 1) b Ha Hmax); [rewrite <- Er; reflexivity | lia | rewrite <- Er; lia].
  - (* n = b: nothing remains, and the parked range [65530, 65530] is empty *)
    assert (E0 : list_all f l 65530 65530 = Ok []).
    { destruct f as [| g]; [reflexivity |]. cbn [list_all]. change (65530 <? 65530) with false. cbv iota.
      rewrite filter_none; [reflexivity |]. intros e He. specialize (Hmax e He).
      unfold in_rng. destruct (N.leb_spec 65530 (fst e)); [lia | reflexivity]. }
    rewrite E0, Er, filter_none; [reflexivity |]. intros e _.
    unfold in_rng. destruct (N.leb_spec (n + 1) (fst e)), (N.leb_spec (fst e) b); try reflexivity; lia.
Qed.

(* the same iteration through Listing::list_line itself, as Runtime::execute drives it in the Listing state *)
Fixpoint list_texts (fuel : nat) (l : listing) (a b : N) : res (list str) :=
  match fuel with
  | O => Ok []
  | S f =>
      do ll <- list_line l a b;
      match ll with
      | None => Ok []
      | Some (text, _, (a', b')) => do more <- list_texts f l a' b'; Ok (text :: more)
      end
  end.

Definition text_of (e : N * list token) : str := line_to_string (Some (fst e), snd e).

Lemma list_texts_all fuel l a b :
  list_texts fuel l a b = do xs <- list_all fuel l a b; Ok (map text_of xs).
Proof.
  revert a b. induction fuel as [| f IH]; intros a b; [reflexivity |].
  cbn [list_texts list_all]. unfold list_line. destruct (b <? a); [reflexivity |].
  destruct (filter (fun e => in_rng a b (fst e)) (ls_lines l)) as [| [n toks] rest]; [reflexivity |].
  cbn [bind]. destruct (n <? b); rewrite IH; match goal with |- context [list_all f l ?x ?y] => destruct (list_all f l x y) end; reflexivity.
Qed.
