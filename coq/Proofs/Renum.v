(* C14: the change map that RENUM builds before it touches any line. *)
From BL Require Import Base.Prelude Lang.Token Mach.Listing.
Local Open Scope N_scope.

Lemma ch_get_set c k v k' : ch_get (ch_set c k v) k' = if k =? k' then Some v else ch_get c k'.
Proof.
  induction c as [| [a b] r IH]; cbn.
  - reflexivity.
  - destruct (N.eqb_spec a k) as [-> | Hne]; cbn.
    + destruct (N.eqb_spec k k'); reflexivity.
    + rewrite IH. destruct (N.eqb_spec a k') as [-> | _]; [| reflexivity].
      destruct (N.eqb_spec k k'); [congruence | reflexivity].
Qed.

Fixpoint numbers (start step : N) (n : nat) : list N :=
  match n with O => [] | S m => start :: numbers (start + step) step m end.

Definition assign (acc : changes) (ps : list (N * N)) : changes :=
  fold_left (fun a p => ch_set a (fst p) (snd p)) ps acc.

Definition renumbered (ls : list (N * list token)) (old_start : N) : list N :=
  map fst (filter (fun e => old_start <=? fst e) ls).

(* the map is: the lines at or above old-start, in listing order, paired with new-start, new-start+step, ... *)
Theorem renum_changes_shape : forall ls ns os step oe nn acc ch,
  renum_changes ls ns os step oe nn acc = Ok ch ->
  ch = assign acc (combine (renumbered ls os) (numbers nn step (length (renumbered ls os))))
  /\ Forall (fun x => x <= 65529) (numbers nn step (length (renumbered ls os))).
Proof.
  induction ls as [| [ln t] r IH]; intros ns os step oe nn acc ch H; cbn [renum_changes] in H.
  - injection H as <-. split; [reflexivity | constructor].
  - unfold renumbered in *. cbn [filter fst]. destruct (N.leb_spec os ln) as [Hge | Hlt].
    + destruct ((oe <=? 65529) && (ns <=? oe)); [discriminate |].
      destruct (N.ltb_spec 65529 nn); [discriminate |].
      destruct (N.ltb_spec 65535 (nn + step)); [discriminate |].
      destruct (IH _ _ _ _ _ _ _ H) as [E1 E2]. cbn [map length numbers combine fst]. split.
      * rewrite E1. reflexivity.
      * constructor; [lia | exact E2].
    + exact (IH _ _ _ _ _ _ _ H).
Qed.

Lemma assign_cons acc a b r : assign acc ((a, b) :: r) = assign (ch_set acc a b) r.
Proof. reflexivity. Qed.

Lemma in_fst_combine {A B} (ks : list A) (vs : list B) k : In k (map fst (combine ks vs)) -> In k ks.
Proof. intros H. apply in_map_iff in H. destruct H as [[a b] [<- H]]. exact (in_combine_l _ _ _ _ H). Qed.

Lemma renumbered_In ls os k : In k (renumbered ls os) -> In k (map fst ls) /\ os <= k.
Proof.
  unfold renumbered. intros H. apply in_map_iff in H. destruct H as [e [<- H]]. apply filter_In in H. destruct H as [H1 H2].
  split; [exact (in_map fst _ _ H1) | apply N.leb_le; exact H2].
Qed.

Lemma assign_get_other acc ps k : ~ In k (map fst ps) -> ch_get (assign acc ps) k = ch_get acc k.
Proof.
  revert acc. induction ps as [| [a b] r IH]; intros acc Hk; [reflexivity |]. rewrite assign_cons. cbn [map fst] in Hk.
  rewrite IH by (intros Hin; apply Hk; right; exact Hin).
  rewrite ch_get_set. destruct (N.eqb_spec a k) as [-> | _]; [exfalso; apply Hk; left; reflexivity | reflexivity].
Qed.

(* lines below old-start keep their numbers: they are not in the map *)
Theorem renum_keeps_lower : forall ls ns os step oe nn acc ch k,
  renum_changes ls ns os step oe nn acc = Ok ch -> k < os -> ch_get ch k = ch_get acc k.
Proof.
  intros ls ns os step oe nn acc ch k H Hk. destruct (renum_changes_shape _ _ _ _ _ _ _ _ H) as [-> _].
  apply assign_get_other. intros Hin. apply in_fst_combine, renumbered_In in Hin. lia.
Qed.

Lemma numbers_length start step n : length (numbers start step n) = n.
Proof. revert start. induction n as [| n IH]; intros start; cbn; [reflexivity | rewrite IH; reflexivity]. Qed.

Lemma numbers_nth start step n j : (j < n)%nat -> nth_error (numbers start step n) j = Some (start + N.of_nat j * step).
Proof.
  revert start j. induction n as [| n IH]; intros start j Hj; [lia |]. destruct j as [| j]; cbn [numbers nth_error].
  - f_equal. lia.
  - rewrite IH by lia. f_equal. lia.
Qed.

Lemma assign_get_nth acc ks vs j k v : NoDup ks -> length ks = length vs ->
  nth_error ks j = Some k -> nth_error vs j = Some v -> ch_get (assign acc (combine ks vs)) k = Some v.
Proof.
  revert acc vs j. induction ks as [| a ks IH]; intros acc vs j Hnd Hl Hk Hv; [destruct j; discriminate |].
  destruct vs as [| b vs]; [discriminate |]. inversion Hnd as [| ? ? Hna Hnd']; subst.
  cbn [combine]. rewrite assign_cons.
  destruct j as [| j]; cbn in Hk, Hv.
  - injection Hk as ->. injection Hv as ->. rewrite assign_get_other.
    + rewrite ch_get_set, N.eqb_refl. reflexivity.
    + intros Hin. exact (Hna (in_fst_combine _ _ _ Hin)).
  - apply (IH _ vs j Hnd'); [cbn in Hl; lia | exact Hk | exact Hv].
Qed.

Lemma renumbered_NoDup ls os : NoDup (map fst ls) -> NoDup (renumbered ls os).
Proof.
  induction ls as [| e r IH]; intros Hnd; [constructor |]. inversion Hnd as [| ? ? Hn Hr]; subst.
  unfold renumbered. cbn [filter]. destruct (os <=? fst e); [| exact (IH Hr)].
  constructor; [| exact (IH Hr)]. intros Hin. exact (Hn (proj1 (renumbered_In _ _ _ Hin))).
Qed.

Theorem renum_assigns_in_order : forall ls ns os step oe nn acc ch j k,
  NoDup (map fst ls) ->
  renum_changes ls ns os step oe nn acc = Ok ch ->
  nth_error (renumbered ls os) j = Some k ->
  ch_get ch k = Some (nn + N.of_nat j * step) /\ nn + N.of_nat j * step <= 65529.
Proof.
  intros ls ns os step oe nn acc ch j k Hnd H Hj. destruct (renum_changes_shape _ _ _ _ _ _ _ _ H) as [-> Hb].
  assert (Hlt : (j < length (renumbered ls os))%nat) by (apply nth_error_Some; congruence).
  pose proof (numbers_nth nn step _ j Hlt) as Hn. split.
  - apply (assign_get_nth acc _ _ j); [apply renumbered_NoDup; exact Hnd | rewrite numbers_length; reflexivity | exact Hj | exact Hn].
  - rewrite Forall_forall in Hb. apply Hb. exact (nth_error_In _ _ Hn).
Qed.
