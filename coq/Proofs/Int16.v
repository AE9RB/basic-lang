(* C08: lemmas about the 16-bit Integer arithmetic of Mach/Ops.v -- the range check chk (exact result or OVERFLOW), the
   range of MOD's remainder, checked_pow against Z's power -- for all operands, no enumeration. *)
From BL Require Import Base.Prelude Mach.Val Mach.Ops.
Local Open Scope Z_scope.

Definition I16 (z : Z) : Prop := -32768 <= z <= 32767.

Lemma in_i16_iff z : in_i16 z = true <-> I16 z.
Proof. unfold in_i16, I16. rewrite andb_true_iff, !Z.leb_le. tauto. Qed.

Lemma in_i16_false z : in_i16 z = false <-> ~ I16 z.
Proof. rewrite <- in_i16_iff. destruct (in_i16 z); split; congruence. Qed.

Lemma chk_spec z :
  (I16 z /\ chk z = Ok (VInt z)) \/ (~ I16 z /\ chk z = err E_Overflow).
Proof.
  unfold chk. destruct (in_i16 z) eqn:E.
  - left. split; [apply in_i16_iff; exact E | reflexivity].
  - right. split; [apply in_i16_false; exact E | reflexivity].
Qed.

Lemma chk_ok z v : chk z = Ok v -> v = VInt z /\ I16 z.
Proof. destruct (chk_spec z) as [[Hi ->] | [_ ->]]; [intros H; injection H as <-; auto | discriminate]. Qed.

(* MOD : remainder with the dividend's sign, always representable *)
Lemma rem_range a b : I16 a -> b <> 0 -> I16 (Z.rem a b).
Proof.
  intros Ha Hb. unfold I16 in *.
  assert (H3 : Z.abs (Z.rem a b) <= Z.abs a).
  { rewrite <- Z.rem_abs by exact Hb.
    apply Z.rem_le; lia. }
  assert (H2 : 0 <= Z.rem a b * a) by (apply Z.rem_sign_mul; exact Hb).
  nia.
Qed.

Lemma abs_pow_ge1 l k : 1 <= Z.abs l -> 0 <= k -> 1 <= Z.abs (l ^ k).
Proof.
  intros Hl Hk. rewrite Z.abs_pow.
  replace 1 with (1 ^ k) at 1 by (apply Z.pow_1_l; exact Hk).
  apply Z.pow_le_mono_l. lia.
Qed.

Lemma abs_pow_ge2 l k : 2 <= Z.abs l -> 1 <= k -> 2 <= Z.abs (l ^ k).
Proof.
  intros Hl Hk. replace k with (Z.succ (k - 1)) by lia.
  rewrite Z.pow_succ_r by lia. rewrite Z.abs_mul.
  pose proof (abs_pow_ge1 l (k - 1) ltac:(lia) ltac:(lia)). nia.
Qed.

Lemma pow_iter_spec l : 2 <= Z.abs l -> forall n acc, I16 acc ->
  pow_iter n l acc =
    if in_i16 (acc * l ^ Z.of_nat n) then Some (acc * l ^ Z.of_nat n) else None.
Proof.
  intros Hl. induction n as [| n IH]; intros acc Hacc.
  - cbn [pow_iter]. change (Z.of_nat 0) with 0. rewrite Z.pow_0_r, Z.mul_1_r.
    apply in_i16_iff in Hacc. rewrite Hacc. reflexivity.
  - cbn [pow_iter]. rewrite Nat2Z.inj_succ, Z.pow_succ_r by lia.
    rewrite Z.mul_assoc.
    destruct (in_i16 (acc * l)) eqn:E.
    + apply IH. apply in_i16_iff. exact E.
    + apply in_i16_false in E.
      assert (Hout : ~ I16 (acc * l * l ^ Z.of_nat n)).
      { unfold I16 in *. intros Hin.
        destruct n as [| n'].
        - change (Z.of_nat 0) with 0 in Hin. rewrite Z.pow_0_r, Z.mul_1_r in Hin. lia.
        - pose proof (abs_pow_ge2 l (Z.of_nat (S n')) Hl ltac:(lia)) as H2.
          assert (H3 : Z.abs (acc * l * l ^ Z.of_nat (S n')) = Z.abs (acc * l) * Z.abs (l ^ Z.of_nat (S n')))
            by apply Z.abs_mul.
          assert (32768 <= Z.abs (acc * l)) by lia.
          nia. }
      apply in_i16_false in Hout. rewrite Hout. reflexivity.
Qed.

Lemma checked_pow_spec l r : 0 <= r ->
  checked_pow l r = if in_i16 (l ^ r) then Some (l ^ r) else None.
Proof.
  intros Hr. unfold checked_pow.
  destruct (Z.eqb_spec l 0) as [-> | H0].
  { destruct (Z.eqb_spec r 0) as [-> | Hr0].
    - reflexivity.
    - rewrite Z.pow_0_l by lia. reflexivity. }
  destruct (Z.eqb_spec l 1) as [-> | H1].
  { rewrite Z.pow_1_l by lia. reflexivity. }
  destruct (Z.eqb_spec l (-1)) as [-> | Hm1].
  { destruct (Z.even r) eqn:Ev.
    - apply Z.even_spec in Ev. rewrite (Z.pow_opp_even 1 r Ev : (-1) ^ r = _), Z.pow_1_l by lia. reflexivity.
    - assert (Hodd : Z.Odd r) by (apply Z.odd_spec; rewrite <- Z.negb_even, Ev; reflexivity).
      rewrite (Z.pow_opp_odd 1 r Hodd : (-1) ^ r = _), Z.pow_1_l by lia. reflexivity. }
  assert (Habs : 2 <= Z.abs l) by lia.
  destruct (Z.ltb_spec 16 r) as [Hbig | Hsmall].
  - assert (Hout : ~ I16 (l ^ r)).
    { unfold I16. intros Hin.
      assert (131072 <= Z.abs (l ^ r)).
      { rewrite Z.abs_pow.
        assert (2 ^ 17 <= 2 ^ r) by (apply Z.pow_le_mono_r; lia).
        assert (2 ^ r <= Z.abs l ^ r) by (apply Z.pow_le_mono_l; lia).
        change (2 ^ 17) with 131072 in *. lia. }
      lia. }
    apply in_i16_false in Hout. rewrite Hout. reflexivity.
  - rewrite (pow_iter_spec l Habs (Z.to_nat r) 1) by (unfold I16; lia).
    rewrite Z2Nat.id by lia. rewrite Z.mul_1_l. reflexivity.
Qed.
