(* C12: a run is a function of the static part of the machine.  Once the fetch loop stands on the CLEAR that opens RUN's
   code, everything it does from there -- every state, every event, for any number of instructions -- is the same for any
   two machines that agree on the static part, whatever their variables, arrays, type defaults, functions, stacks, DATA
   pointers, random-number states and CONT slots were. *)
From BL Require Import Base.Prelude Base.Floats Mach.Val Mach.Ops Mach.Func Mach.Var
     Lang.Token Lang.Lex Lang.Ast Lang.Parse Mach.Compile Mach.Listing Mach.Runtime Proofs.Slicing Proofs.ExprCompile Proofs.Swap.
From Coq Require Import Lia.
Local Open Scope N_scope.

Section RunForgets.
Variable O : oracle.

Lemma static_eq_map (f : rt -> rt) r r' : (forall x, static_part (f x) = f (static_part x)) ->
  static_eq r r' -> static_eq (f r) (f r').
Proof. intros Hf. rewrite !static_eq_part, !Hf. intros ->. reflexivity. Qed.

Lemma static_eq_facts r r' : static_eq r r' ->
  r_tron r = r_tron r' /\ r_tr r = r_tr r' /\ r_pc r = r_pc r' /\ r_col r = r_col r'
  /\ l_ops (pg_link (r_prog r)) = l_ops (pg_link (r_prog r')) /\ prog_line_for r = prog_line_for r'.
Proof.
  intros H. apply static_eq_part in H.
  split; [exact (f_equal r_tron H) |]. split; [exact (f_equal r_tr H) |]. split; [exact (f_equal r_pc H) |].
  split; [exact (f_equal r_col H) |]. split; [exact (f_equal (fun x => l_ops (pg_link (r_prog x))) H) |].
  exact (f_equal prog_line_for H).
Qed.

(* one turn of the loop on CLEAR: the two machines become one *)
Lemma clear_step : forall h r r', static_eq r r' -> nthN (l_ops (pg_link (r_prog r))) (r_pc r) = Some OpClear ->
  one_op O h r = one_op O h r'.
Proof.
  intros h r r' H Hop. destruct (static_eq_facts r r' H) as (_ & _ & Hpc & _ & Hops & _).
  unfold one_op. cbv beta delta [rbind rget rret rmod] iota. rewrite <- Hops, <- Hpc, Hop. cbn [exec_op].
  unfold rbind, rret. rewrite <- ?Hpc. pose proof (clear_forgets O _ _ (static_eq_map (fun x => set_pc x (r_pc r + 1)) r r' (fun _ => eq_refl) H)) as Hc.
  destruct (do_clear O (set_pc r (r_pc r + 1))) as [r1 x1] eqn:E1. destruct (do_clear O (set_pc r' (r_pc r + 1))) as [r2 x2] eqn:E2.
  cbn [fst] in Hc. subst r2. unfold do_clear in E1, E2. injection E1 as _ <-. injection E2 as _ <-. reflexivity.
Qed.

Theorem run_forgets : forall n h r r', static_eq r r' -> nthN (l_ops (pg_link (r_prog r))) (r_pc r) = Some OpClear ->
  (r_tron r = false \/ prog_line_for r (r_pc r) = None) ->
  exec_loop_x O (S n) h r = exec_loop_x O (S n) h r'.
Proof.
  intros n h r r' H Hop Hq. destruct (static_eq_facts r r' H) as (Htron & Htr & Hpc & Hcol & Hops & Hpl).
  cbn [exec_loop_x]. cbv beta delta [rbind rget rret rmod] iota. rewrite <- Htron, <- Htr, <- Hpl, <- Hpc.
  destruct (r_tron r && line_changed (prog_line_for r (r_pc r)) (r_tr r)) eqn:Et; cbv beta iota.
  - destruct Hq as [Hq | Hq]; [rewrite Hq in Et; discriminate |]. rewrite Hq.
    rewrite (clear_step h _ _ (static_eq_map (fun x => set_tr x None) r r' (fun _ => eq_refl) H) Hop). reflexivity.
  - rewrite (clear_step h _ _ H Hop). reflexivity.
Qed.

End RunForgets.

(* the premises are met by two machines that differ in their dynamic part *)
Definition demo_machine : rt :=
  set_prog rt_default (mkProg [] [] 0 None (mkLink 0 [OpClear; OpEnd] [] 0 false [] [] [])).
Definition demo_machine_used : rt :=
  set_cont (set_data_pos (set_fns (set_stack_len demo_machine [VInt 3; VStr [65]] 2) [([70; 78; 65], (1, 1))]) 7) StRunning.
Example run_forgets_premises :
  static_eq demo_machine demo_machine_used /\ demo_machine <> demo_machine_used
  /\ nthN (l_ops (pg_link (r_prog demo_machine))) (r_pc demo_machine) = Some OpClear /\ r_tron demo_machine = false.
Proof. split; [| split; [| split]]; try reflexivity; [unfold static_eq; cbn; repeat split | discriminate]. Qed.
