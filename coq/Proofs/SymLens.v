(* C20 -- the symbol table is for messages only.  No instruction reads the linked program's symbol table (TRON stores the
   current line in the trace marker, which nothing but the trace step reads): running on a machine with another symbol table
   gives the same results and events; only line numbers reported afterwards can differ. *)
From BL Require Import Base.Prelude Mach.Val Mach.Compile Mach.Runtime Proofs.RMFrame.
Local Open Scope N_scope.

Definition with_syms (p : program) (syms : list (Z * (N * N))) : program :=
  let l := pg_link p in with_link p (mkLink (l_cur l) (l_ops l) (l_data l) (l_data_pos l) (l_direct_set l) syms (l_unlinked l) (l_whiles l)).

(* the lens: trace marker t and symbol table syms replaced (c is not used: it gives this lens the two parameters `sim` expects) *)
Definition L (c : N) (t : option N) (ops : list (Z * (N * N))) (r : rt) : rt :=
  set_prog (set_tr r t) (with_syms (r_prog r) ops).

Lemma l_blind syms : stack_blind (fun c t => L c t syms).
Proof. split; reflexivity. Qed.

Definition lensed {A} (m : RM A) : Prop := forall syms, sim (fun c t => L c t syms) m.

Lemma lensed_do_end : lensed do_end.
Proof.
  intros syms c t r. exists c, t. unfold do_end. cbn [L set_prog set_tr r_pc r_entry r_state r_cont].
  destruct (r_pc r <? r_entry r); cbn [L set_prog set_tr set_cont_pc set_state set_cont r_pc r_entry];
    match goal with |- context [if ?b then _ else _] => destruct b end; reflexivity.
Qed.

Ltac lens_walk := lazymatch goal with |- lensed _ => intros ? | _ => idtac end;
  rm_walk uconstr:(sim_closed _)
    ltac:(idtac; first [ apply lensed_do_end
                       | sim_prim uconstr:(l_blind _) sim_side ]).

Section All.
Variable O : oracle.

Lemma lensed_do_next fuel name : lensed (do_next fuel name).
Proof.
  induction fuel as [| f IH]; [cbn [do_next]; lens_walk |].
  intros syms. apply (c_ext _ (sim_closed _) _ _ _ (do_next_eq f name)). lens_walk; apply IH.
Qed.

Theorem lensed_exec_op_all h op : lensed (exec_op O h op).
Proof.
  intros syms. destruct op; cbn [exec_op];
    unfold do_cont, do_def, do_deftype, do_delete, need_unique, do_fn, do_input, do_letmid, do_list, do_load, do_new, do_on, do_print,
      do_read, do_renum, do_swap, do_builtin, pop_1_push, pop_2_push, pop_vec, pop2; lens_walk.
  - apply (sim_rget _ (fun r => do_next (S (N.to_nat (r_slen r))) s)); [sim_side | intros r0; apply lensed_do_next].
  - apply (closed_fold_push _ (sim_closed _) _ (fun a => a)); [intros ? |]; lens_walk.
Qed.

(* the fetch loop: while the machine does not trace, the symbol table is not looked at *)
Fixpoint quiet_run (fuel : nat) (h : bool) (r : rt) : Prop :=
  match fuel with
  | 0%nat => True
  | S f => r_tron r = false /\ match one_op O h r with (r2, Ok None) => quiet_run f h r2 | _ => True end
  end.

End All.
