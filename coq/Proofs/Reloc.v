(* C20 (and C01): branch targets are resolved through the symbol table.
   (i)  appending a fragment re-bases it: its code lands unchanged behind the existing code;
   (ii) linking patches every recorded reference with the address of its symbol and touches no other instruction. *)
From BL Require Import Base.Prelude Lang.Ast Mach.Compile.
Local Open Scope N_scope.

Lemma zassoc_set_in {V} k (v : V) : forall l k' v', In (k', v') (zassoc_set k v l) -> (k' = k /\ v' = v) \/ In (k', v') l.
Proof.
  induction l as [| [k0 v0] r IH]; intros k' v' H; cbn [zassoc_set] in H.
  - destruct H as [E | []]. injection E as <- <-. left. split; reflexivity.
  - destruct (k =? k0)%Z eqn:Ek.
    + destruct H as [E | H]; [injection E as <- <-; left; split; reflexivity | right; right; exact H].
    + destruct H as [E | H]; [right; left; exact E |]. destruct (IH _ _ H) as [L | R]; [left; exact L | right; right; exact R].
Qed.

Lemma nassoc_set_in {V} k (v : V) : forall l k' v', In (k', v') (nassoc_set k v l) -> (k' = k /\ v' = v) \/ In (k', v') l.
Proof.
  induction l as [| [k0 v0] r IH]; intros k' v' H; cbn [nassoc_set] in H.
  - destruct H as [E | []]. injection E as <- <-. left. split; reflexivity.
  - destruct (k =? k0) eqn:Ek.
    + destruct H as [E | H]; [injection E as <- <-; left; split; reflexivity | right; right; exact H].
    + destruct H as [E | H]; [right; left; exact E |]. destruct (IH _ _ H) as [Lf | R]; [left; exact Lf | right; right; exact R].
Qed.

Lemma zassoc_get_set_other {V} k k' (v : V) : forall l, k <> k' -> zassoc_get k (zassoc_set k' v l) = zassoc_get k l.
Proof.
  induction l as [| [k0 v0] r IH]; intros Hne; cbn [zassoc_set zassoc_get].
  - destruct (Z.eqb_spec k k'); [contradiction | reflexivity].
  - destruct (Z.eqb_spec k' k0) as [-> | Hn0]; cbn [zassoc_get].
    + destruct (Z.eqb_spec k k0); [contradiction | reflexivity].
    + destruct (Z.eqb_spec k k0); [reflexivity | apply IH; exact Hne].
Qed.

Lemma zassoc_get_set_same {V} k (v : V) : forall l, zassoc_get k (zassoc_set k v l) = Some v.
Proof.
  induction l as [| [k0 v0] r IH]; cbn [zassoc_set zassoc_get]; [rewrite Z.eqb_refl; reflexivity |].
  destruct (Z.eqb_spec k k0) as [-> | Hn]; cbn [zassoc_get]; [rewrite Z.eqb_refl; reflexivity |].
  destruct (Z.eqb_spec k k0); [contradiction | exact IH].
Qed.

Lemma zassoc_get_none {V} key : forall (l : list (Z * V)), (forall k v, In (k, v) l -> k <> key) -> zassoc_get key l = None.
Proof.
  induction l as [| [k v] r IH]; intros H; [reflexivity |]. cbn [zassoc_get].
  destruct (Z.eqb_spec key k) as [-> | _]; [exfalso; exact (H k v (or_introl eq_refl) eq_refl) |]. apply IH. intros k' v' Hin. apply (H k' v'). right. exact Hin.
Qed.

Lemma get_none_no_entry {V} k : forall (s : list (Z * V)) v, zassoc_get k s = None -> ~ In (k, v) s.
Proof.
  induction s as [| [k0 v0] r IH]; intros v H Hin; [contradiction |]. cbn [zassoc_get] in H.
  destruct (Z.eqb_spec k k0) as [-> | Hne]; [discriminate |].
  destruct Hin as [E | Hin]; [injection E as E _; apply Hne; symmetry; exact E | exact (IH v H Hin)].
Qed.

Lemma get_none_fresh {V} k : forall (s : list (Z * V)), zassoc_get k s = None -> forall v, zassoc_set k v s = s ++ [(k, v)].
Proof.
  induction s as [| [k0 v0] r IH]; intros H v; cbn [zassoc_set app]; [reflexivity |]. cbn [zassoc_get] in H.
  destruct (k =? k0)%Z; [discriminate |]. rewrite (IH H). reflexivity.
Qed.

Lemma fold_zset_in {V X} (g : X -> Z) (h : X -> V) : forall fs acc k v,
  In (k, v) (fold_left (fun acc e => zassoc_set (g e) (h e) acc) fs acc) -> In (k, v) acc \/ exists e, In e fs /\ k = g e.
Proof.
  induction fs as [| e r IH]; intros acc k v H; cbn [fold_left] in H; [left; exact H |].
  destruct (IH _ _ _ H) as [Hin | [e' [He' Ek]]].
  - apply zassoc_set_in in Hin. destruct Hin as [[-> _] | Hin]; [right; exists e; split; [left; reflexivity | reflexivity] | left; exact Hin].
  - right. exists e'. split; [right; exact He' | exact Ek].
Qed.

Lemma fold_zset_get {V X} (g : X -> Z) (h : X -> V) k : forall fs acc, (forall e, In e fs -> g e <> k) ->
  zassoc_get k (fold_left (fun acc e => zassoc_set (g e) (h e) acc) fs acc) = zassoc_get k acc.
Proof.
  induction fs as [| e r IH]; intros acc H; cbn [fold_left]; [reflexivity |].
  rewrite IH by (intros e' He'; apply H; right; exact He'). apply zassoc_get_set_other. intros E. apply (H e (or_introl eq_refl)). symmetry. exact E.
Qed.

Lemma fold_nset_in {V X} (g : X -> N) (h : X -> V) : forall fs acc k v,
  In (k, v) (fold_left (fun acc e => nassoc_set (g e) (h e) acc) fs acc) -> In (k, v) acc \/ exists e, In e fs /\ k = g e /\ v = h e.
Proof.
  induction fs as [| e r IH]; intros acc k v H; cbn [fold_left] in H; [left; exact H |].
  destruct (IH _ _ _ H) as [Hin | [e' [He' Ek]]].
  - apply nassoc_set_in in Hin. destruct Hin as [[-> ->] | Hin]; [right; exists e; split; [left; reflexivity | split; reflexivity] | left; exact Hin].
  - right. exists e'. split; [right; exact He' | exact Ek].
Qed.

Lemma app_nil_3 {A} (a b c : list A) : a ++ b ++ c = [] -> a = [] /\ b = [] /\ c = [].
Proof. intros H. apply app_eq_nil in H. destruct H as [Ha H]. apply app_eq_nil in H. destruct H. auto. Qed.

Lemma flat_map_map {A B C} (f : A -> B) (g : B -> list C) l : flat_map g (map f l) = flat_map (fun x => g (f x)) l.
Proof. induction l as [| x r IH]; cbn [map flat_map]; [reflexivity | rewrite IH; reflexivity]. Qed.

Lemma map_flat_map {A B C} (f : B -> C) (g : A -> list B) (h : A -> list C) l :
  Forall (fun x => map f (g x) = h x) l -> map f (flat_map g l) = flat_map h l.
Proof. induction 1 as [| x r Hx _ IH]; cbn [flat_map]; [reflexivity |]. rewrite map_app, Hx, IH. reflexivity. Qed.

(* every pool (instructions, DATA) refuses the entry that would be its 65536th *)
Lemma pool_takes_one {A} (xs : list A) x e : (if MAX_POOL <? lenN (xs ++ [x]) then Err e else Ok tt) = Ok tt <-> lenN xs + 1 <= 65535.
Proof.
  unfold lenN. rewrite app_length. cbn [length]. unfold MAX_POOL.
  destruct (N.ltb_spec 65535 (N.of_nat (length xs + 1))); split; intros H'; try lia; try discriminate; reflexivity.
Qed.

(* (i) Link::append by outcome.  `merged f l` is l with the code of f behind its own and with f's symbols, references and
   WHILE records re-based; the data follow in a second step, because the instruction pool is checked first. *)
Definition rebase (so s : Z) : Z := if (s <? 0)%Z then (s + so)%Z else s.
Definition merged (f l : link) : link :=
  mkLink (l_cur l + l_cur f)%Z (l_ops l ++ l_ops f) (l_data l) (l_data_pos l) (l_direct_set l)
    (fold_left (fun acc e => zassoc_set (rebase (l_cur l) (fst e)) (fst (snd e) + lenN (l_ops l), snd (snd e) + lenN (l_data l)) acc)
               (l_syms f) (l_syms l))
    (fold_left (fun acc e => nassoc_set (fst e + lenN (l_ops l)) (fst (snd e), rebase (l_cur l) (snd (snd e))) acc)
               (l_unlinked f) (l_unlinked l))
    (l_whiles l ++ map (fun w => match w with (k, c, a, s) => (k, c, a + lenN (l_ops l), (s + l_cur l)%Z) end) (l_whiles f)).

Lemma merged_syms_in f l k v : In (k, v) (l_syms (merged f l)) ->
  In (k, v) (l_syms l) \/ exists e, In e (l_syms f) /\ k = rebase (l_cur l) (fst e).
Proof. exact (fold_zset_in _ _ (l_syms f) (l_syms l) k v). Qed.

Lemma merged_syms_get f l k : (forall e, In e (l_syms f) -> rebase (l_cur l) (fst e) <> k) ->
  zassoc_get k (l_syms (merged f l)) = zassoc_get k (l_syms l).
Proof. exact (fold_zset_get _ _ k (l_syms f) (l_syms l)). Qed.

Lemma merged_unlinked_in f l a c s : In (a, (c, s)) (l_unlinked (merged f l)) ->
  In (a, (c, s)) (l_unlinked l) \/ exists e, In e (l_unlinked f) /\ c = fst (snd e) /\ s = rebase (l_cur l) (snd (snd e)).
Proof.
  intros H. apply fold_nset_in in H. destruct H as [H | [e [He [_ Ev]]]]; [left; exact H | right]. injection Ev as -> ->. exists e. auto.
Qed.

Lemma l_append_eq f l : l_append f l =
  if l_direct_set l && match l_data f with [] => false | _ => true end then (l, err E_IllegalDirect)
  else if MAX_POOL <? lenN (l_ops l ++ l_ops f) then (merged f l, Err oom)
  else (set_data (merged f l) (l_data l ++ l_data f), if MAX_POOL <? lenN (l_data l ++ l_data f) then Err oom else Ok tt).
Proof. reflexivity. Qed.

Lemma l_append_cases f l l' x : l_append f l = (l', x) ->
  (l' = l /\ x = err E_IllegalDirect)
  \/ (l' = merged f l /\ x = Err oom)
  \/ (l' = set_data (merged f l) (l_data l ++ l_data f) /\ (x = Err oom \/ x = Ok tt)).
Proof.
  rewrite l_append_eq. destruct (l_direct_set l && _); [| destruct (MAX_POOL <? _); [| destruct (MAX_POOL <? _)]];
    intros H; injection H as <- <-; auto.
Qed.

Theorem append_ops : forall f l l', l_append f l = (l', Ok tt) ->
  l_ops l' = l_ops l ++ l_ops f /\ l_data l' = l_data l ++ l_data f /\ l_cur l' = (l_cur l + l_cur f)%Z.
Proof.
  intros f l l' H. destruct (l_append_cases f l l' _ H) as [[_ E] | [[_ E] | [-> _]]]; [discriminate E | discriminate E |].
  repeat split; reflexivity.
Qed.

Lemma list_set_length {A} (l : list A) i x : length (list_set l i x) = length l.
Proof. revert i. induction l as [| y r IH]; intros i; destruct i; cbn; auto. Qed.

Lemma list_set_nth {A} (l : list A) i x j :
  nth_error (list_set l i x) j = if Nat.eqb i j then (match nth_error l j with Some _ => Some x | None => None end) else nth_error l j.
Proof.
  revert i j. induction l as [| y r IH]; intros i j; destruct i, j; cbn; try reflexivity.
  - destruct (Nat.eqb i j); reflexivity.
  - apply IH.
Qed.

Section Link.
Variable syms : list (Z * (N * N)).

Definition lstep (acc : list opcode * list error) (e : N * (col * Z)) : list opcode * list error :=
  let '(ops, errs) := acc in
  let '(addr, (c, sym)) := e in
  let fail := (ops, errs ++ [mkErr E_Internal (line_number_for syms addr) c]) in
  match zassoc_get sym syms with
  | None => if (0 <=? sym)%Z then (ops, errs ++ [mkErr E_UndefinedLine (line_number_for syms addr) c]) else fail
  | Some dest =>
      match nthN ops addr with
      | Some op => match patch_op op dest with
                   | Some op' => (list_set ops (N.to_nat addr) op', errs)
                   | None => fail
                   end
      | None => fail
      end
  end.

Lemma lstep_other acc e a : a <> fst e -> nthN (fst (lstep acc e)) a = nthN (fst acc) a.
Proof.
  destruct acc as [ops errs]. destruct e as [addr [c sym]]. cbn [fst]. intros Hne. unfold lstep.
  destruct (zassoc_get sym syms) as [dest |]; [| destruct (0 <=? sym)%Z; reflexivity].
  destruct (nthN ops addr) as [op |]; [| reflexivity]. destruct (patch_op op dest); [| reflexivity].
  cbn [fst]. unfold nthN. rewrite list_set_nth. destruct (Nat.eqb_spec (N.to_nat addr) (N.to_nat a)); [lia | reflexivity].
Qed.

Lemma fold_other : forall unl acc a, ~ In a (map fst unl) -> nthN (fst (fold_left lstep unl acc)) a = nthN (fst acc) a.
Proof.
  induction unl as [| e r IH]; intros acc a Hn; [reflexivity |]. cbn [fold_left].
  rewrite IH by (intros Hin; apply Hn; right; exact Hin). apply lstep_other. intros E. apply Hn. left. symmetry. exact E.
Qed.

Theorem fold_patches : forall unl acc addr c sym dest op op',
  NoDup (map fst unl) -> In (addr, (c, sym)) unl ->
  zassoc_get sym syms = Some dest -> nthN (fst acc) addr = Some op -> patch_op op dest = Some op' ->
  nthN (fst (fold_left lstep unl acc)) addr = Some op'.
Proof.
  induction unl as [| e r IH]; intros acc addr c sym dest op op' Hnd Hin Hs Hop Hp; [destruct Hin |].
  inversion Hnd as [| ? ? Hna Hnd']; subst. cbn [fold_left]. destruct Hin as [-> | Hin].
  - rewrite fold_other by exact Hna. destruct acc as [ops errs]. cbn [fst] in *. unfold lstep. rewrite Hs, Hop, Hp. cbn [fst].
    unfold nthN in *. rewrite list_set_nth, Nat.eqb_refl, Hop. reflexivity.
  - apply (IH _ addr c sym dest op op' Hnd' Hin Hs); [| exact Hp].
    rewrite lstep_other; [exact Hop |]. intros E. apply Hna. rewrite <- E. rewrite in_map_iff. exists (addr, (c, sym)). split; [reflexivity | exact Hin].
Qed.

End Link.

Theorem link_link_is_fold : forall l,
  let '(unl, werrs) := link_whiles_loop (l_whiles l) [] (l_syms l) (l_unlinked l) [] in
  l_ops (fst (link_link l)) = fst (fold_left (lstep (l_syms l)) unl (l_ops l, werrs)).
Proof.
  intros l. unfold link_link. destruct (link_whiles_loop _ _ _ _ _) as [unl werrs].
  match goal with |- context [fold_left ?f unl ?a] => change f with (lstep (l_syms l)) end.
  destruct (fold_left (lstep (l_syms l)) unl (l_ops l, werrs)) as [ops errs]. reflexivity.
Qed.
