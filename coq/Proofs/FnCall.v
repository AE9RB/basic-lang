(* RETURN without a value (return_plain, return_without_gosub); a run of pushes (pushes_ok), used in Props/C10.v for the
   arguments of a call and in Props/C17.v for the fields of an INPUT reply. *)
From BL Require Import Base.Prelude Mach.Val Mach.Compile Mach.Runtime Proofs.ExprCompile.
Local Open Scope N_scope.

(* GOSUB's RETURN: nothing above the return address, so nothing is kept *)
Theorem return_plain : forall r a rest, r_stack r = VRet a :: rest ->
  do_return r = (set_pc (set_stack r rest) a, Ok tt).
Proof. intros r a rest Hs. unfold do_return. rewrite Hs. reflexivity. Qed.

(* RETURN with no return address anywhere below: the stack is emptied and the error reported *)
Theorem return_without_gosub : forall r, return_loop (r_stack r) None true = None ->
  do_return r = (set_stack r [], err E_ReturnWithoutGosub).
Proof. intros r H. unfold do_return. rewrite H. reflexivity. Qed.

Lemma pushes_ok : forall {A} (g : A -> val) xs r, r_slen r + lenN xs <= MAX_POOL ->
  fold_left (fun m a => rdo _ <~ m ;; push (g a)) xs (rret tt) r
  = (set_stack_len r (rev (map g xs) ++ r_stack r) (r_slen r + lenN xs), Ok tt).
Proof.
  intros A g.
  assert (G : forall xs (m0 : RM unit) r r0, m0 r = (r0, Ok tt) -> r_slen r0 + lenN xs <= MAX_POOL ->
            fold_left (fun m a => rdo _ <~ m ;; push (g a)) xs m0 r
            = (set_stack_len r0 (rev (map g xs) ++ r_stack r0) (r_slen r0 + lenN xs), Ok tt)).
  { induction xs as [| x xs IH]; intros m0 r r0 H0 Hb; cbn [fold_left].
    - rewrite H0. cbn [map rev app]. unfold lenN. cbn [List.length]. rewrite N.add_0_r. destruct r0; reflexivity.
    - assert (Hl : lenN (x :: xs) = 1 + lenN xs) by (unfold lenN; cbn [List.length]; lia).
      rewrite (IH (rdo _ <~ m0 ;; push (g x)) r (set_stack_len r0 (g x :: r_stack r0) (r_slen r0 + 1))).
      + cbn [r_stack r_slen set_stack_len map rev]. rewrite <- app_assoc. cbn [app]. rewrite Hl.
        replace (r_slen r0 + 1 + lenN xs) with (r_slen r0 + (1 + lenN xs)) by lia. reflexivity.
      + unfold rbind. rewrite H0. apply push_ok. lia.
      + cbn [r_slen set_stack_len]. lia. }
  intros xs r Hb. exact (G xs (rret tt) r r eq_refl Hb).
Qed.

