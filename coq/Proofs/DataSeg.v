(* C09: the data segment of a compiled program is the program's DATA constants in source order.
   What code generation does to the data segment: of a statement's fragment (cg_stmt_data), of a program compiled line
   by line (compile_from_data), and of a linked program (program_link_data). *)
From BL Require Import Base.Prelude Mach.Val Mach.Ops Lang.Ast Mach.Compile Spec.Sem Proofs.Reloc.
From BL Require Export Proofs.LinkPres.
Local Open Scope N_scope.

Definition nodata {A} (m : LM A) : Prop := forall l l' x, m l = (l', x) -> l_data l' = l_data l.

(* nodata is pres of this relation *)
Definition same_data (l l' : link) : Prop := l_data l' = l_data l.

Lemma nodata_const {A} (x0 : res A) : nodata (fun l => (l, x0)).
Proof. exact (pres_const same_data (fun _ => eq_refl) x0). Qed.
Lemma nodata_bind {A B} (m : LM A) (f : A -> LM B) : nodata m -> (forall a, nodata (f a)) -> nodata (lbind m f).
Proof. exact (pres_bind same_data (fun a b c H1 H2 => eq_trans H2 H1) m f). Qed.
Lemma nodata_fold {A X} (xs : list X) (step : LM A -> X -> LM A) :
  (forall m x, In x xs -> nodata m -> nodata (step m x)) -> forall m0, nodata m0 -> nodata (fold_left step xs m0).
Proof. exact (pres_fold same_data xs step). Qed.

Lemma nodata_push op : nodata (l_push op).
Proof. intros l l' x H. unfold l_push in H. injection H as <- _. reflexivity. Qed.
Lemma nodata_next_symbol : nodata l_next_symbol.
Proof. intros l l' x H. injection H as <- _. reflexivity. Qed.
Lemma nodata_push_symbol s : nodata (l_push_symbol s).
Proof. intros l l' x H. injection H as <- _. reflexivity. Qed.
Lemma nodata_unlink_here c s : nodata (l_unlink_here c s).
Proof. intros l l' x H. injection H as <- _. reflexivity. Qed.
Lemma nodata_add_while k c s : nodata (l_add_while k c s).
Proof. intros l l' x H. injection H as <- _. reflexivity. Qed.

Lemma append_data f l l' : l_append f l = (l', Ok tt) -> l_data l' = l_data l ++ l_data f.
Proof. intros H. exact (proj1 (proj2 (append_ops f l l' H))). Qed.
Lemma nodata_append f : l_data f = [] -> nodata (l_append f).
Proof.
  intros Hf l l' x H. destruct (l_append_cases f l l' x H) as [[-> _] | [[-> _] | [-> _]]]; [reflexivity | reflexivity |].
  cbn [set_data l_data]. rewrite Hf. apply app_nil_r.
Qed.

Lemma nodata_rel : frag_rel same_data (fun f => l_data f = []).
Proof.
  split; [reflexivity | intros a b c H1 H2; exact (eq_trans H2 H1) | intros l H; exact H | exact nodata_push | exact nodata_append].
Qed.

Lemma run_frag_ok (m : LM col) c l : run_frag m = ((c, l), []) -> m link_empty = (l, Ok c).
Proof. unfold run_frag. destruct (m link_empty) as [l0 [c0 | e | |]]; intros H; try discriminate. injection H as <- <-. reflexivity. Qed.

#[export] Hint Resolve nodata_push nodata_next_symbol nodata_push_symbol nodata_unlink_here nodata_add_while nodata_append : pres.
Ltac nd := walk nodata_const nodata_bind fail.
Ltac nd_fold H := walk_fold nodata_fold ltac:(nd) H.

Lemma nodata_lit_len n : nodata (lit_len n).
Proof. exact (pres_lit_len nodata_rel n). Qed.
Lemma nodata_test v s : nodata (test_for_built_in v s).
Proof. exact (pres_test nodata_rel v s). Qed.
Lemma nodata_push_jump c s : nodata (l_push_jump c s).
Proof. unfold l_push_jump. nd. Qed.
Lemma nodata_push_ifnot c s : nodata (l_push_ifnot c s).
Proof. unfold l_push_ifnot. nd. Qed.
Lemma nodata_push_return_val c s : nodata (l_push_return_val c s).
Proof. unfold l_push_return_val. nd. Qed.
Lemma nodata_sym_of_line n : nodata (sym_of_line n).
Proof. exact (pres_sym_of_line nodata_rel n). Qed.
#[export] Hint Resolve nodata_lit_len nodata_test nodata_push_jump nodata_push_ifnot nodata_push_return_val nodata_sym_of_line : pres.
Lemma nodata_push_goto c n : nodata (l_push_goto c n).
Proof. unfold l_push_goto. nd. Qed.
Lemma nodata_push_gosub c n : nodata (l_push_gosub c n).
Proof. unfold l_push_gosub. nd. Qed.
Lemma nodata_push_for c : nodata (l_push_for c).
Proof. unfold l_push_for. nd. Qed.
Lemma nodata_push_restore c n : nodata (l_push_restore c n).
Proof. unfold l_push_restore. nd. Qed.
Lemma nodata_push_run c n : nodata (l_push_run c n).
Proof. unfold l_push_run. nd. Qed.
Lemma nodata_push_wend c : nodata (l_push_wend c).
Proof. unfold l_push_wend. nd. Qed.
Lemma nodata_push_while c e : l_data e = [] -> nodata (l_push_while c e).
Proof. intros H. unfold l_push_while. nd. Qed.
#[export] Hint Resolve nodata_push_goto nodata_push_gosub nodata_push_for nodata_push_restore nodata_push_run nodata_push_wend nodata_push_while : pres.

Lemma nodata_push_as_expression v : l_data (vi_link v) = [] -> nodata (push_as_expression v).
Proof. exact (pres_push_as_expression nodata_rel v). Qed.
Lemma nodata_push_as_pop v : l_data (vi_link v) = [] -> nodata (push_as_pop v).
Proof. exact (pres_push_as_pop nodata_rel v). Qed.
Lemma nodata_push_as_pop_unary v : nodata (push_as_pop_unary v).
Proof. exact (pres_push_as_pop_unary nodata_rel v). Qed.
Lemma nodata_push_as_dim v : l_data (vi_link v) = [] -> nodata (push_as_dim v).
Proof. exact (pres_push_as_dim nodata_rel v). Qed.
Lemma nodata_append_all fs : Forall (fun f : frag => l_data (snd f) = []) fs -> nodata (append_all fs).
Proof. exact (pres_append_all nodata_rel fs). Qed.
#[export] Hint Resolve nodata_push_as_expression nodata_push_as_pop nodata_push_as_pop_unary nodata_push_as_dim nodata_append_all : pres.

Theorem cg_expr_nodata : forall e, l_data (snd (fst (cg_expr e))) = [].
Proof. exact (cg_expr_pres nodata_rel). Qed.

Lemma nodata_on_targets c : forall ts se, nodata (cg_on_targets c ts se).
Proof. induction ts as [| t r IH]; intros se; cbn [cg_on_targets]; [nd | destruct (link_line_number (snd t)); nd; apply IH]. Qed.
Lemma nodata_pop_line_number f : nodata (pop_line_number f).
Proof. exact (pres_pop_line_number nodata_rel f). Qed.
Lemma nodata_val_of_line n : nodata (val_of_line n).
Proof. exact (pres_val_of_line nodata_rel n). Qed.
Lemma nodata_cg_range c a b op : nodata (cg_range c a b op).
Proof. exact (pres_cg_range nodata_rel c a b op). Qed.
Lemma nodata_cg_deftype c a b op : nodata (cg_deftype c a b op).
Proof. exact (pres_cg_deftype nodata_rel c a b op). Qed.
Lemma nodata_simple c op : nodata (simple c op).
Proof. exact (pres_simple nodata_rel c op). Qed.
Lemma nodata_def_fn c name vars body : l_data body = [] -> nodata (l_push_def_fn c name vars body).
Proof.
  intros H. unfold l_push_def_fn. nd. apply nodata_fold; [| nd]. intros m x _ Hm. nd.
Qed.
#[export] Hint Resolve nodata_on_targets nodata_pop_line_number nodata_val_of_line nodata_cg_range nodata_cg_deftype
  nodata_simple nodata_def_fn : pres.

Definition plain (s : stmt) : bool := match s with SData _ _ | SIf _ _ _ _ => false | _ => true end.

Lemma fin_nodata (pre : list error) (m : LM col) :
  nodata m -> l_data (snd (fst (let '(f, errs) := run_frag m in (f, pre ++ errs)))) = [].
Proof. exact (fin_pres nodata_rel pre m). Qed.

Theorem plain_nodata : forall s, plain s = true -> l_data (snd (fst (cg_stmt s))) = [].
Proof.
  intros s Hp. destruct s; try discriminate; stmt_walk nodata_rel cg_expr_nodata (cg_var_pres nodata_rel) fin_nodata ltac:(nd) nd_fold.
Qed.

Definition adds {A} (m : LM A) (d : list val) : Prop := forall l l' a, m l = (l', Ok a) -> l_data l' = l_data l ++ d.

Lemma nodata_adds {A} (m : LM A) : nodata m -> adds m [].
Proof. intros H l l' a E. rewrite (H l l' _ E), app_nil_r. reflexivity. Qed.
Lemma adds_bind {A B} (m : LM A) (f : A -> LM B) d1 d2 : adds m d1 -> (forall a, adds (f a) d2) -> adds (lbind m f) (d1 ++ d2).
Proof.
  intros Hm Hf l l' b H. unfold lbind in H. destruct (m l) as [l1 [a | e | |]] eqn:E; try discriminate.
  rewrite (Hf a l1 l' b H), (Hm l l1 a E), app_assoc. reflexivity.
Qed.
Lemma adds_append f : adds (l_append f) (l_data f).
Proof. intros l l' [] H. exact (append_data f l l' H). Qed.

Lemma adds_append_all : forall fs : list frag, adds (append_all fs) (flat_map (fun f => l_data (snd f)) fs).
Proof.
  unfold append_all. intros fs.
  assert (G : forall (m0 : LM unit) d0, adds m0 d0 ->
            adds (fold_left (fun m (f : frag) => ldo _ <~ m ;; l_append (snd f)) fs m0) (d0 ++ flat_map (fun f => l_data (snd f)) fs)).
  { induction fs as [| f r IH]; intros m0 d0 H0; cbn [fold_left flat_map]; [rewrite app_nil_r; exact H0 |].
    rewrite app_assoc. apply IH. apply adds_bind; [exact H0 | intros _; apply adds_append]. }
  apply (G (lret tt) []). apply nodata_adds, nodata_const.
Qed.

Lemma adds_after {A B} (m : LM A) (f : A -> LM B) d : nodata m -> (forall a, adds (f a) d) -> adds (lbind m f) d.
Proof. intros Hm Hf. exact (adds_bind m f [] d (nodata_adds m Hm) Hf). Qed.
Lemma adds_before {A B} (m : LM A) (f : A -> LM B) d : adds m d -> (forall a, nodata (f a)) -> adds (lbind m f) d.
Proof. intros Hm Hf. rewrite <- (app_nil_r d). exact (adds_bind m f d [] Hm (fun a => nodata_adds _ (Hf a))). Qed.

Fixpoint consts (l : list expr) : list val :=
  match l with
  | [] => []
  | e :: r => match data_const e with Some v => v :: consts r | None => consts r end
  end.
Definition wf_item (e : expr) : bool := match data_const e with Some _ => true | None => false end.

Lemma consts_wf l : forallb wf_item l = true -> map Some (consts l) = map data_const l.
Proof.
  induction l as [| e r IH]; intros H; [reflexivity |]. cbn [forallb] in H. apply andb_prop in H. destruct H as [He Hr].
  unfold wf_item in He. cbn [consts map]. destruct (data_const e); [| discriminate]. cbn [map]. rewrite (IH Hr). reflexivity.
Qed.

Lemma chk_value z v : chk z = Ok v -> v = VInt z.
Proof. unfold chk. destruct (in_i16 z); intros H; [injection H as <-; reflexivity | discriminate]. Qed.

Lemma item_data : forall e v f' u, data_const e = Some v ->
  l_transform_to_data (fst (fst (cg_expr e))) (snd (fst (cg_expr e))) = (f', Ok u) -> l_data f' = [v].
Proof.
  intros e v f' u Hdc Ht.
  destruct e as [c i | c i args | c b | c b | c n | c s | c x | c x | c o a b]; cbn [data_const] in Hdc; try discriminate;
    try (injection Hdc as <-; injection Ht as <- _; reflexivity).
  destruct x as [c1 i | c1 i args | c1 b | c1 b | c1 n | c1 s | c1 x | c1 x | c1 o a b]; try discriminate;
    try (injection Hdc as <-; injection Ht as <- _; reflexivity).
  (* a negated integer literal: the negation is carried out, and checked, at compile time *)
  destruct (n =? -32768)%Z; [discriminate |]. injection Hdc as <-.
  change (snd (fst (cg_expr (ENeg c (EInt c1 n))))) with (mkLink 0 [OpLiteral (VInt n); OpNeg] [] 0 false [] [] []) in Ht.
  unfold l_transform_to_data in Ht. cbn [l_ops set_ops op_negate] in Ht.
  destruct (chk (- n)) as [w | er | |] eqn:Ec; cbn in Ht; try discriminate.
  injection Ht as <- _. rewrite (chk_value _ _ Ec). reflexivity.
Qed.

(* the loop of the DATA statement *)
Definition data_step (m : LM unit) (f : frag) : LM unit :=
  ldo _ <~ m ;;
  (fun lk => match l_transform_to_data (fst f) (snd f) with
             | (f', Ok _) => l_append f' lk
             | (_, Err e) => (lk, Err e)
             | (_, _) => (lk, Panic)
             end).

Lemma data_loop : forall l m0 d0, adds m0 d0 -> forallb wf_item l = true ->
  adds (fold_left data_step (map fst (map cg_expr l)) m0) (d0 ++ consts l).
Proof.
  induction l as [| e r IH]; intros m0 d0 H0 Hwf; cbn [map fold_left consts]; [rewrite app_nil_r; exact H0 |].
  cbn [forallb] in Hwf. apply andb_prop in Hwf. destruct Hwf as [He Hr]. unfold wf_item in He.
  destruct (data_const e) as [v |] eqn:Hdc; [| discriminate].
  replace (d0 ++ v :: consts r) with ((d0 ++ [v]) ++ consts r) by (rewrite <- app_assoc; reflexivity).
  apply IH; [| exact Hr]. unfold data_step. apply adds_bind; [exact H0 |]. intros _ lk l' a H.
  destruct (l_transform_to_data (fst (fst (cg_expr e))) (snd (fst (cg_expr e)))) as [f' [u | er | |]] eqn:Et; try discriminate.
  destruct a. rewrite (append_data f' lk l' H), (item_data e v f' u Hdc Et). reflexivity.
Qed.

(* a statement is well formed for DATA when every DATA item is a constant (a literal, possibly negated) *)
Fixpoint wf_data (s : stmt) : bool :=
  match s with
  | SData _ l => forallb wf_item l
  | SIf _ _ th el => forallb wf_data th && forallb wf_data el
  | _ => true
  end.

Lemma flat_map_nil {A B} (f : A -> list B) l : flat_map f l = [] -> Forall (fun x => f x = []) l.
Proof. induction l as [| x r IH]; cbn [flat_map]; intros H; [constructor |]. apply app_eq_nil in H. destruct H. constructor; auto. Qed.

(* the form in which cg_stmt uses run_frag *)
Lemma fin_adds (pre : list error) (m : LM col) d : adds m d ->
  snd (let '(f, errs) := run_frag m in (f, pre ++ errs)) = [] ->
  pre = [] /\ l_data (snd (fst (let '(f, errs) := run_frag m in (f, pre ++ errs)))) = d.
Proof.
  intros Hm H. destruct (run_frag m) as [[c l] errs] eqn:E. cbn [fst snd] in *. apply app_eq_nil in H. destruct H as [-> ->].
  split; [reflexivity | exact (Hm _ _ _ (run_frag_ok m c l E))].
Qed.

Definition frags_of (ss : list stmt) : list frag := map fst (map cg_stmt ss).
Definition line_vals (ss : list stmt) : list val := flat_map (fun s => l_data (snd (fst (cg_stmt s)))) ss.
Lemma frags_data ss : flat_map (fun f : frag => l_data (snd f)) (frags_of ss) = line_vals ss.
Proof. unfold frags_of. rewrite !flat_map_map. reflexivity. Qed.

Lemma cg_errors_nil ss : flat_map snd (map cg_stmt ss) = [] <-> Forall (fun s => snd (cg_stmt s) = []) ss.
Proof.
  rewrite flat_map_map. split; [apply flat_map_nil |].
  induction 1 as [| x r Hx _ IH]; [reflexivity |]. cbn [flat_map]. rewrite Hx, IH. reflexivity.
Qed.

Lemma stmts_data ss :
  Forall (fun s => snd (cg_stmt s) = [] -> wf_data s = true -> map Some (l_data (snd (fst (cg_stmt s)))) = stmt_data s) ss ->
  Forall (fun s => snd (cg_stmt s) = []) ss -> forallb wf_data ss = true -> map Some (line_vals ss) = line_data ss.
Proof.
  intros HF He W. apply map_flat_map. rewrite forallb_forall in W. rewrite Forall_forall in *.
  intros s Hin. exact (HF s Hin (He s Hin) (W s Hin)).
Qed.

(* a statement that compiles without an error contributes exactly its DATA constants, in the
   order the reference semantics lists them (for IF: THEN part, then ELSE part) *)
Theorem cg_stmt_data : forall s, snd (cg_stmt s) = [] -> wf_data s = true ->
  map Some (l_data (snd (fst (cg_stmt s)))) = stmt_data s.
Proof.
  induction s as [c p th el IHth IHel | s Hs] using stmt_ind2; intros Herr Hwf.
  - cbn [wf_data] in Hwf. apply andb_prop in Hwf. destruct Hwf as [Wth Wel].
    cbn [cg_stmt stmt_data] in *. pose proof (cg_expr_nodata p) as Hp. destruct (cg_expr p) as [pf x0]. cbn [fst snd] in Hp.
    match type of Herr with context [run_frag ?m] =>
      assert (HM : adds m (flat_map (fun f : frag => l_data (snd f)) (frags_of th) ++ flat_map (fun f : frag => l_data (snd f)) (frags_of el)))
    end.
    { apply adds_after; [nd |]. intros _. apply adds_after; [nd |]. intros es. apply adds_after; [nd |]. intros _.
      apply adds_bind; [apply adds_append_all |]. intros _.
      destruct el as [| e0 el']; cbn [map]; [apply nodata_adds; nd |].
      apply adds_after; [nd |]. intros fs. apply adds_after; [nd |]. intros _. apply adds_after; [nd |]. intros _.
      apply adds_before; [apply adds_append_all | intros _; nd]. }
    destruct (fin_adds _ _ _ HM Herr) as [Hpre ->]. apply app_nil_3 in Hpre. destruct Hpre as (_ & Hths & Hels).
    apply cg_errors_nil in Hths, Hels. rewrite !frags_data, map_app.
    rewrite (stmts_data th IHth Hths Wth), (stmts_data el IHel Hels Wel). reflexivity.
  - destruct s; try contradiction; try (rewrite plain_nodata by reflexivity; reflexivity).
    cbn [wf_data] in Hwf. cbn [cg_stmt stmt_data] in *.
    match type of Herr with context [run_frag ?m] => assert (HM : adds m (consts l)) end.
    { apply adds_before; [| intros _; nd]. apply (data_loop l (lret tt) []); [apply nodata_adds; nd | exact Hwf]. }
    rewrite (proj2 (fin_adds _ _ _ HM Herr)). apply consts_wf. exact Hwf.
Qed.

Lemma line_vals_data ss : Forall (fun s => snd (cg_stmt s) = []) ss -> forallb wf_data ss = true ->
  map Some (line_vals ss) = line_data ss.
Proof. apply stmts_data, Forall_forall. intros s _. apply cg_stmt_data. Qed.

Lemma prog_error_errors p e : pg_errors (prog_error p e) <> [].
Proof. unfold prog_error. cbn. destruct (pg_errors p); discriminate. Qed.

Lemma fold_prog_error_errors : forall errs p, pg_errors (fold_left prog_error errs p) = [] -> errs = [] /\ pg_errors p = [].
Proof.
  induction errs as [| e r IH]; intros p H; cbn [fold_left] in H; [split; [reflexivity | exact H] |].
  destruct (IH _ H) as [_ Hp]. exfalso. exact (prog_error_errors p e Hp).
Qed.

Lemma append_frags_cons f r p : pg_errors (append_stmt_frags p (f :: r)) = [] ->
  exists l', l_append (snd f) (pg_link p) = (l', Ok tt) /\ append_stmt_frags p (f :: r) = append_stmt_frags (with_link p l') r.
Proof.
  cbn [append_stmt_frags]. intros H. destruct (l_append (snd f) (pg_link p)) as [l' x] eqn:E.
  destruct (l_append_cases _ _ _ _ E) as [[_ ->] | [[_ ->] | [_ [-> | ->]]]]; try (exfalso; exact (prog_error_errors _ _ H)).
  exists l'. split; reflexivity.
Qed.

Lemma append_frags_data : forall fs p, pg_errors (append_stmt_frags p fs) = [] ->
  pg_errors p = [] /\ l_data (pg_link (append_stmt_frags p fs)) = l_data (pg_link p) ++ flat_map (fun f : frag => l_data (snd f)) fs.
Proof.
  induction fs as [| f r IH]; intros p H; [split; [exact H | cbn [flat_map]; rewrite app_nil_r; reflexivity] |].
  destruct (append_frags_cons f r p H) as (l' & E & Er). rewrite Er in *. destruct (IH _ H) as [Hp Hd]. split; [exact Hp |].
  rewrite Hd. cbn [with_link pg_link flat_map]. rewrite (append_data _ _ _ E), app_assoc. reflexivity.
Qed.

(* a numbered line: its symbol is set, then the fragments of its statements are appended *)
Definition sym_pushed (p : program) (m : N) : program :=
  mkProg (pg_errors p) (pg_ind_errors p) (pg_direct p) (Some m)
         (mkLink (l_cur (pg_link p)) (l_ops (pg_link p)) (l_data (pg_link p)) (l_data_pos (pg_link p)) (l_direct_set (pg_link p))
                 (zassoc_set (Z.of_N m) (lenN (l_ops (pg_link p)), lenN (l_data (pg_link p))) (l_syms (pg_link p)))
                 (l_unlinked (pg_link p)) (l_whiles (pg_link p))).

Lemma codegen_line_form : forall p m ss, flat_map snd (map cg_stmt ss) = [] ->
  codegen_line p (Some m) (Ok ss) = append_stmt_frags (sym_pushed p m) (frags_of ss).
Proof.
  intros p m ss He. unfold codegen_line, codegen_ast. cbn [with_link pg_link pg_errors pg_ind_errors pg_direct pg_line l_push_symbol fst].
  rewrite He. reflexivity.
Qed.

Lemma line_ok : forall p n ss, pg_errors (codegen_line p (Some n) (Ok ss)) = [] ->
  pg_errors p = [] /\ Forall (fun s => snd (cg_stmt s) = []) ss
  /\ codegen_line p (Some n) (Ok ss) = append_stmt_frags (sym_pushed p n) (frags_of ss).
Proof.
  intros p n ss H. unfold codegen_line, codegen_ast in H. cbn [with_link pg_link pg_errors pg_ind_errors pg_direct pg_line l_push_symbol] in H.
  match type of H with context [append_stmt_frags ?q ?fs] => destruct (append_frags_data fs q H) as [Hq _] end.
  apply fold_prog_error_errors in Hq. destruct Hq as [He Hp].
  split; [exact Hp |]. split; [apply cg_errors_nil; exact He | exact (codegen_line_form p n ss He)].
Qed.

Lemma codegen_line_data : forall p n ss, pg_errors (codegen_line p (Some n) (Ok ss)) = [] ->
  pg_errors p = [] /\ Forall (fun s => snd (cg_stmt s) = []) ss
  /\ l_data (pg_link (codegen_line p (Some n) (Ok ss))) = l_data (pg_link p) ++ line_vals ss.
Proof.
  intros p n ss H. destruct (line_ok p n ss H) as (Hp & Hss & E). split; [exact Hp |]. split; [exact Hss |].
  rewrite E in *. destruct (append_frags_data _ _ H) as [_ Hd]. rewrite Hd, frags_data. reflexivity.
Qed.

Definition compile_from (p : program) (lines : list (N * list stmt)) : program :=
  fold_left (fun p e => codegen_line p (Some (fst e)) (Ok (snd e))) lines p.

Lemma compile_from_data : forall lines p, pg_errors (compile_from p lines) = [] ->
  pg_errors p = [] /\ Forall (fun e => Forall (fun s => snd (cg_stmt s) = []) (snd e)) lines
  /\ l_data (pg_link (compile_from p lines)) = l_data (pg_link p) ++ flat_map (fun e => line_vals (snd e)) lines.
Proof.
  induction lines as [| [n ss] r IH]; intros p H; cbn [compile_from fold_left flat_map] in *.
  - split; [exact H |]. split; [constructor | rewrite app_nil_r; reflexivity].
  - destruct (IH _ H) as (H1 & Hr & Hd). cbn [fst snd] in *. destruct (codegen_line_data p n ss H1) as (Hp & Hss & Hd1).
    split; [exact Hp |]. split; [constructor; assumption |]. fold (compile_from (codegen_line p (Some n) (Ok ss)) r).
    rewrite Hd, Hd1, app_assoc. reflexivity.
Qed.

Lemma link_link_data l : l_data (fst (link_link l)) = l_data l.
Proof.
  unfold link_link. destruct (link_whiles_loop _ _ _ _ _) as [unl werrs].
  match goal with |- context [fold_left ?f unl ?a] => destruct (fold_left f unl a) as [ops errs] end. reflexivity.
Qed.

(* Program::link in two steps: the closing END, then the resolution of the references *)
Definition with_end (p : program) : program :=
  let at_end := existsb (fun e => fst (snd e) =? lenN (l_ops (pg_link p))) (l_syms (pg_link p)) in
  if last_is_end (l_ops (pg_link p)) && negb at_end then p
  else match l_push OpEnd (pg_link p) with
       | (l', Ok _) => with_link p l'
       | (l', Err e) => prog_raw_error (with_link p l') e
       | (l', _) => with_link p l'
       end.
Definition link_tail (p1 : program) : program :=
  let '(l2, lerrs) := link_link (pg_link p1) in
  let errs := match pg_errors p1 with [] => lerrs | _ => pg_errors p1 end in
  if pg_direct p1 =? 0 then
    let da := lenN (l_ops l2) in
    let l3 := mkLink (l_cur l2) (l_ops l2) (l_data l2) (l_data_pos l2) true
                     (zassoc_set 65530 (da, lenN (l_data l2)) (l_syms l2)) (l_unlinked l2) (l_whiles l2) in
    mkProg [] errs da (pg_line p1) l3
  else mkProg errs (pg_ind_errors p1) (pg_direct p1) (pg_line p1) l2.

Lemma program_link_steps p : program_link p = link_tail (with_end p).
Proof. reflexivity. Qed.

Lemma link_tail_fields p1 :
  l_ops (pg_link (link_tail p1)) = l_ops (fst (link_link (pg_link p1)))
  /\ l_data (pg_link (link_tail p1)) = l_data (pg_link p1)
  /\ pg_direct (link_tail p1) = if pg_direct p1 =? 0 then lenN (l_ops (fst (link_link (pg_link p1)))) else pg_direct p1.
Proof.
  unfold link_tail. pose proof (link_link_data (pg_link p1)) as H. destruct (link_link (pg_link p1)) as [l2 lerrs]. cbn [fst] in *.
  destruct (pg_direct p1 =? 0); cbn [pg_link pg_direct l_ops l_data]; auto.
Qed.

Lemma program_link_data p : l_data (pg_link (program_link p)) = l_data (pg_link p).
Proof.
  rewrite program_link_steps, (proj1 (proj2 (link_tail_fields _))). unfold with_end. destruct (last_is_end _ && _); [reflexivity |].
  pose proof (nodata_push OpEnd (pg_link p)) as Hp. destruct (l_push OpEnd (pg_link p)) as [l' x]. specialize (Hp l' x eq_refl).
  destruct x as [u | e | |]; exact Hp.
Qed.
