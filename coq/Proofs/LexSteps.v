(* The token loop as a sequence of steps.  One round of lex_loop is named (scan1), the loop is restated without its
   accumulator (scan), and each sub-scanner gets the one lemma that says what kind of token it returns and that the
   text it leaves is no longer than the text it was given.  The theorems about the scanner argue about scan1 and scan. *)
From BL Require Import Base.Prelude Lang.Token Lang.Lex.
Local Open Scope N_scope.

Lemma lower_range c : is_lower c = true <-> 97 <= c <= 122.
Proof. unfold is_lower. rewrite andb_true_iff, !N.leb_le. tauto. Qed.
Lemma upper_range c : is_upper c = true <-> 65 <= c <= 90.
Proof. unfold is_upper. rewrite andb_true_iff, !N.leb_le. tauto. Qed.
Lemma digit_range c : is_digit c = true <-> 48 <= c <= 57.
Proof. unfold is_digit. rewrite andb_true_iff, !N.leb_le. tauto. Qed.

Definition rem_tail (body : str) : list token := match body with [] => [] | _ => [TUnknown body] end.

(* the two tests for a remark, as booleans: lex_loop's own match on the token has a branch for every reserved word, and a
   case analysis on it as many cases; after rem1_match / rem2_match there are two *)
Definition is_rem1 (toks : list token) : bool := match toks with TWord WRem1 :: _ => true | _ => false end.
Definition is_rem2 (t : token) : bool := match t with TWord WRem2 => true | _ => false end.

Lemma rem1_match {A} toks (a b : A) : match toks with TWord WRem1 :: _ => a | _ => b end = if is_rem1 toks then a else b.
Proof. destruct toks as [| [| | | [] | | | | | | |] more]; reflexivity. Qed.
Lemma rem2_match {A} t (a b : A) : match t with TWord WRem2 => a | _ => b end = if is_rem2 t then a else b.
Proof. destruct t as [| | | [] | | | | | | |]; reflexivity. Qed.

Lemma is_rem1_in toks : is_rem1 toks = true -> In (TWord WRem1) toks.
Proof. destruct toks as [| [| | | [] | | | | | | |] more]; try discriminate. intros _. left. reflexivity. Qed.
Lemma is_rem2_eq t : is_rem2 t = true -> t = TWord WRem2.
Proof. destruct t as [| | | [] | | | | | | |]; try discriminate. reflexivity. Qed.

(* None: a remark has taken the rest of the line *)
Definition scan1 (cs : str) : res (list token * option str) :=
  match cs with
  | [] => Ok ([], None)
  | pk :: r =>
      if is_ws pk then let '(t, rest) := ws_loop cs 0 in Ok ([t], Some rest)
      else if is_digit pk || (pk =? 46) then do tr <- lex_number cs; Ok ([fst tr], Some (snd tr))
      else if is_alpha pk then
        let '(toks, rest) := alpha_loop cs [] false [] in
        if is_rem1 toks then Ok (toks ++ rem_tail rest, None) else Ok (toks, Some rest)
      else if pk =? 34 then let '(t, rest) := string_loop r [] in Ok ([t], Some rest)
      else if pk =? 38 then let '(t, rest) := lex_radix r in Ok ([t], Some rest)
      else
        let '(t, rest) := lex_minutia cs in
        if is_rem2 t then Ok (t :: rem_tail rest, None) else Ok ([t], Some rest)
  end.

Fixpoint scan (fuel : nat) (cs : str) : res (list token) :=
  match fuel with
  | O => Hang
  | S f =>
      match cs with
      | [] => Ok []
      | _ => do tr <- scan1 cs;
             match snd tr with
             | None => Ok (fst tr)
             | Some rest => do ts <- scan f rest; Ok (fst tr ++ ts)
             end
      end
  end.

Theorem lex_loop_scan : forall fuel cs acc, lex_loop fuel cs acc = do ts <- scan fuel cs; Ok (rev acc ++ ts).
Proof.
  induction fuel as [| f IH]; intros cs acc; [reflexivity |].
  destruct cs as [| pk r]; [cbn; rewrite app_nil_r; reflexivity |].
  assert (Hmore : forall toks rest,
            lex_loop f rest (rev toks ++ acc) = do ts <- (do ts <- scan f rest; Ok (toks ++ ts)); Ok (rev acc ++ ts)).
  { intros toks rest. rewrite IH. destruct (scan f rest); cbn [bind]; try reflexivity.
    rewrite rev_app_distr, rev_involutive, app_assoc. reflexivity. }
  cbn [lex_loop scan]. unfold scan1.
  destruct (is_ws pk); [destruct (ws_loop (pk :: r) 0) as [t rest]; exact (Hmore [t] rest) |].
  destruct (is_digit pk || (pk =? 46)).
  { destruct (lex_number (pk :: r)) as [[t rest] | e | |]; try reflexivity. exact (Hmore [t] rest). }
  destruct (is_alpha pk).
  { destruct (alpha_loop (pk :: r) [] false []) as [toks rest]. rewrite rem1_match.
    destruct (is_rem1 toks); [reflexivity | exact (Hmore toks rest)]. }
  destruct (pk =? 34); [destruct (string_loop r []) as [t rest]; exact (Hmore [t] rest) |].
  destruct (pk =? 38); [destruct (lex_radix r) as [t rest]; exact (Hmore [t] rest) |].
  destruct (lex_minutia (pk :: r)) as [t rest]. rewrite rem2_match.
  destruct (is_rem2 t); [reflexivity | exact (Hmore [t] rest)].
Qed.

Corollary lex_loop_nil fuel cs : lex_loop fuel cs [] = scan fuel cs.
Proof. rewrite lex_loop_scan. destruct (scan fuel cs); reflexivity. Qed.

Definition post_passes (ts : list token) : list token :=
  pp_separate_words (pp_collapse_doubles (pp_collapse_triples (pp_trim_end ts))).

Lemma lex_split src num body : split_line_number src = (num, body) ->
  lex src = do ts <- scan (S (List.length body)) body; Ok (num, post_passes ts).
Proof. intros E. unfold lex. rewrite E, lex_loop_nil. reflexivity. Qed.

Definition no_ident (t : token) : Prop := match t with TIdent _ => False | _ => True end.

Lemma ws_loop_spec : forall cs n, exists k rest, ws_loop cs n = (TWs k, rest) /\ (length rest <= length cs)%nat.
Proof.
  induction cs as [| c r IH]; intros n; cbn [ws_loop]; [exists n, []; split; [reflexivity | lia] |].
  destruct (is_ws c); [| exists n, (c :: r); split; [reflexivity | lia]].
  destruct (IH (n + 1)) as (k & rest & E & L). exists k, rest. split; [exact E | cbn [length]; lia].
Qed.

Lemma string_loop_spec : forall cs acc, exists s rest, string_loop cs acc = (TLit (LStr s), rest) /\ (length rest <= length cs)%nat.
Proof.
  induction cs as [| c r IH]; intros acc; cbn [string_loop]; [exists (rev acc), []; split; [reflexivity | lia] |].
  destruct (c =? 34); [exists (rev acc), r; split; [reflexivity | cbn [length]; lia] |].
  destruct (IH (c :: acc)) as (s & rest & E & L). exists s, rest. split; [exact E | cbn [length]; lia].
Qed.

Lemma radix_loop_len : forall cs hex acc, (length (snd (radix_loop cs hex acc)) <= length cs)%nat.
Proof.
  induction cs as [| c r IH]; intros hex acc; cbn [radix_loop]; [cbn; lia |].
  match goal with |- context [if ?b then _ else _] => destruct b end; [specialize (IH hex (to_upper c :: acc)); cbn [length]; lia | cbn; lia].
Qed.

Lemma lex_radix_spec cs : exists l rest, lex_radix cs = (TLit l, rest) /\ (length rest <= length cs)%nat.
Proof.
  unfold lex_radix. destruct cs as [| h r]; [exists (LOct []), []; split; [reflexivity | lia] |].
  destruct ((h =? 72) || (h =? 104)).
  - pose proof (radix_loop_len r true []) as L. destruct (radix_loop r true []) as [s rest].
    exists (LHex s), rest. split; [reflexivity | cbn [snd length] in *; lia].
  - pose proof (radix_loop_len (h :: r) false []) as L. destruct (radix_loop (h :: r) false []) as [s rest].
    exists (LOct s), rest. split; [reflexivity | exact L].
Qed.

Lemma minutia_loop_spec : forall cs acc, cs <> [] ->
  exists s rest, minutia_loop cs acc = (TUnknown s, rest) /\ (length rest < length cs)%nat.
Proof.
  induction cs as [| c r IH]; intros acc Hne; [contradiction |]. cbn [minutia_loop].
  destruct r as [| pk r']; [exists (rev (c :: acc)), []; split; [reflexivity | cbn; lia] |].
  destruct (is_alpha pk || is_digit pk || is_ws pk); [exists (rev (c :: acc)), (pk :: r'); split; [reflexivity | cbn; lia] |].
  destruct (IH (c :: acc) ltac:(discriminate)) as (s & rest & E & L). exists s, rest. split; [exact E | cbn [length] in *; lia].
Qed.

Lemma match_minutia_no_ident c t : match_minutia c = Some t -> no_ident t.
Proof.
  unfold match_minutia. intros E.
  repeat match type of E with (if ?b then _ else _) = _ => destruct b; [injection E as <-; exact I |] end. discriminate.
Qed.

Lemma lex_minutia_spec cs : cs <> [] ->
  exists t rest, lex_minutia cs = (t, rest) /\ no_ident t /\ (length rest < length cs)%nat.
Proof.
  intros Hne. unfold lex_minutia. destruct cs as [| c r]; [contradiction |].
  destruct (match_minutia c) as [t |] eqn:E.
  - exists t, r. split; [reflexivity | split; [exact (match_minutia_no_ident c t E) | cbn; lia]].
  - destruct (minutia_loop_spec (c :: r) [] Hne) as (s & rest & E' & L). exists (TUnknown s), rest. split; [exact E' | split; [exact I | exact L]].
Qed.

(* number(): the literal that the local function `finish` of number_loop builds *)
Definition number_lit (s : str) (digits : N) (decimal expf : bool) : literal :=
  let s' := rev s in
  if 7 <? digits then LDbl s'
  else if negb expf && negb decimal && (match parse_i16 s' with Some _ => true | None => false end) then LInt s'
  else LSng s'.

Lemma finish_eq (s : str) (digits : N) (decimal expf : bool) (rest : str) :
  (let s' := rev s in
   if 7 <? digits then Ok (TLit (LDbl s'), rest)
   else if negb expf && negb decimal && (match parse_i16 s' with Some _ => true | None => false end)
        then Ok (TLit (LInt s'), rest)
   else Ok (TLit (LSng s'), rest)) = Ok (TLit (number_lit s digits decimal expf), rest).
Proof. unfold number_lit. cbv zeta. destruct (7 <? digits); [reflexivity |]. destruct (_ && _); reflexivity. Qed.

(* always a literal; the remainder never grows, and shrinks unless the very first character is a dangling exponent letter
   (which the token loop never passes: number() is entered on a digit or a period) *)
Definition number_ok (cs : str) (x : res (token * str)) : Prop :=
  exists l rest, x = Ok (TLit l, rest) /\ (length rest <= length cs)%nat
    /\ (forall c r, cs = c :: r -> c <> 69 -> c <> 101 -> c <> 68 -> c <> 100 -> (length rest < length cs)%nat).

Lemma number_ok_shorter c cs l (rr : str) : (length rr <= length cs)%nat -> number_ok (c :: cs) (Ok (TLit l, rr)).
Proof. intros L. exists l, rr. split; [reflexivity | split; [cbn [length]; lia | intros; cbn [length]; lia]]. Qed.

Lemma number_ok_cons c cs x : number_ok cs x -> number_ok (c :: cs) x.
Proof. intros (l & rest & -> & L & _). apply number_ok_shorter. exact L. Qed.

Lemma number_loop_spec : forall cs s d dec e, number_ok cs (number_loop cs s d dec e).
Proof.
  induction cs as [| ch0 rest IH]; intros s d dec e; cbn [number_loop]; rewrite ?finish_eq.
  - exists (number_lit s d dec e), []. split; [reflexivity | split; [lia | discriminate]].
  - set (ch := if ch0 =? 101 then 69 else if ch0 =? 100 then 68 else ch0).
    assert (Hch : (ch =? 69) || (ch =? 68) = true -> ch0 = 69 \/ ch0 = 101 \/ ch0 = 68 \/ ch0 = 100).
    { unfold ch. destruct (N.eqb_spec ch0 101); [auto |]. destruct (N.eqb_spec ch0 100); [auto |].
      intros H. apply orb_prop in H. destruct H as [H | H]; apply N.eqb_eq in H; auto. }
    assert (Hrec : forall s' d' dec' e', number_ok (ch0 :: rest) (number_loop rest s' d' dec' e'))
      by (intros; apply number_ok_cons, IH).
    destruct (ch =? 33); [apply number_ok_shorter; lia |].
    destruct (ch =? 35); [apply number_ok_shorter; lia |].
    destruct (ch =? 37); [apply number_ok_shorter; lia |].
    destruct rest as [| pk rest2] eqn:Erest; [apply number_ok_shorter; lia |]. rewrite <- Erest in *.
    destruct ((ch =? 69) || (ch =? 68)) eqn:Ee; cbn [andb].
    + destruct ((pk =? 43) || (pk =? 45)); [apply Hrec |].
      destruct (negb (is_digit pk)).
      * (* the dangling letter is pushed back: the remainder is as long as the input, which is allowed only because
           the first character is then an exponent letter *)
        specialize (Hch eq_refl). eexists _, (ch :: rest). split; [reflexivity | split; [cbn [length]; lia |]].
        intros c r E H1 H2 H3 H4. injection E as <- _. lia.
      * repeat (match goal with |- number_ok _ (if ?b then _ else _) => destruct b; [apply Hrec |] end).
        apply number_ok_shorter. lia.
    + repeat (match goal with |- number_ok _ (if ?b then _ else _) => destruct b; [apply Hrec |] end).
      apply number_ok_shorter. lia.
Qed.

Lemma alpha_loop_progress : forall cs s digit pend, cs <> [] -> (length (snd (alpha_loop cs s digit pend)) < length cs)%nat.
Proof.
  induction cs as [| c0 rest IH]; intros s digit pend Hne; [contradiction |]. cbn [alpha_loop].
  repeat match goal with |- context [if ?b then _ else _] => destruct b; [cbn; lia |] end.
  destruct rest as [| pk rest2] eqn:Er.
  - destruct (scan_alphabetic _ _ _). cbn. lia.
  - rewrite <- Er in *. assert (Hr : rest <> []) by (rewrite Er; discriminate).
    assert (Hrec : forall a b c, (length (snd (alpha_loop rest a b c)) < length (c0 :: rest))%nat)
      by (intros a b c; specialize (IH a b c Hr); cbn [length]; lia).
    destruct (is_alpha pk).
    + destruct (digit || is_digit (to_upper c0))%bool; [cbn; lia | apply Hrec].
    + destruct (is_digit pk || is_suffix_chr pk)%bool.
      * destruct (scan_alphabetic _ _ _) as [toks s2]. destruct s2; [cbn; lia | apply Hrec].
      * destruct (scan_alphabetic _ _ _). cbn. lia.
Qed.

Lemma scan1_spec pk r :
  exists toks next, scan1 (pk :: r) = Ok (toks, next)
    /\ match next with Some rest => (length rest < length (pk :: r))%nat | None => True end
    /\ (Forall no_ident toks
        \/ is_alpha pk = true /\ exists tail, Forall no_ident tail /\ toks = fst (alpha_loop (pk :: r) [] false []) ++ tail).
Proof.
  assert (Hone : forall t, no_ident t -> Forall no_ident [t]) by (intros t Ht; constructor; [exact Ht | constructor]).
  assert (Htail : forall rest, Forall no_ident (rem_tail rest)) by (intros [| c b]; repeat constructor).
  unfold scan1. destruct (is_ws pk) eqn:Ews.
  { cbn [ws_loop]. rewrite Ews. destruct (ws_loop_spec r (0 + 1)) as (k & rest & -> & L).
    exists [TWs k], (Some rest). split; [reflexivity | split; [cbn [length]; lia | left; apply Hone; exact I]]. }
  destruct (is_digit pk || (pk =? 46)) eqn:Enum.
  { destruct (number_loop_spec (pk :: r) [] 0 false false) as (l & rest & E & _ & Hlt).
    unfold lex_number. rewrite E. exists [TLit l], (Some rest). split; [reflexivity | split; [| left; apply Hone; exact I]].
    apply (Hlt pk r eq_refl); intros ->; discriminate Enum. }
  destruct (is_alpha pk).
  { pose proof (alpha_loop_progress (pk :: r) [] false [] ltac:(discriminate)) as Hp.
    destruct (alpha_loop (pk :: r) [] false []) as [toks rest]. cbn [fst snd] in *.
    destruct (is_rem1 toks).
    - exists (toks ++ rem_tail rest), None. split; [reflexivity | split; [exact I | right; split; [reflexivity |]]].
      exists (rem_tail rest). split; [apply Htail | reflexivity].
    - exists toks, (Some rest). split; [reflexivity | split; [exact Hp | right; split; [reflexivity |]]].
      exists []. split; [constructor | symmetry; apply app_nil_r]. }
  destruct (pk =? 34).
  { destruct (string_loop_spec r []) as (s & rest & -> & L).
    exists [TLit (LStr s)], (Some rest). split; [reflexivity | split; [cbn [length]; lia | left; apply Hone; exact I]]. }
  destruct (pk =? 38).
  { destruct (lex_radix_spec r) as (l & rest & -> & L).
    exists [TLit l], (Some rest). split; [reflexivity | split; [cbn [length]; lia | left; apply Hone; exact I]]. }
  destruct (lex_minutia_spec (pk :: r) ltac:(discriminate)) as (t & rest & -> & Ht & L).
  destruct (is_rem2 t).
  - exists (t :: rem_tail rest), None. split; [reflexivity | split; [exact I | left; constructor; [exact Ht | apply Htail]]].
  - exists [t], (Some rest). split; [reflexivity | split; [exact L | left; apply Hone; exact Ht]].
Qed.
