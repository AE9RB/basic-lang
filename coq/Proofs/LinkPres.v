(* What a code-generation action does to the link it runs on, whatever its outcome.  `pres R m`: the link m leaves is
   R-related to the link it started on.  For a preorder R this is closed under the operations of the monad, so a fact of
   this form about the code generator follows from the same fact about the few primitives that change a link.  The data
   segment left alone (DataSeg.nodata), the symbols left alone (SymSeg.quiet), symbol hygiene (SymSeg.scoped) and the
   columns of line references (RefCols.rf) are instances.
   Before that, induction over expressions and statements with their lists (expr_ind2, stmt_ind2); behind it, what follows
   for fragments from the facts about l_push and l_append (frag_rel, Section Frags), and the walk tactics. *)
From BL Require Import Base.Prelude Mach.Ops Lang.Ast Mach.Compile.
Local Open Scope N_scope.

Section ExprInd.
Variable P : expr -> Prop.
Hypothesis Hu : forall c i, P (EUnary c i).
Hypothesis Ha : forall c i args, Forall P args -> P (EArray c i args).
Hypothesis Hs : forall c b, P (ESng c b).
Hypothesis Hd : forall c b, P (EDbl c b).
Hypothesis Hi : forall c n, P (EInt c n).
Hypothesis Hst : forall c s, P (EStr c s).
Hypothesis Hneg : forall c x, P x -> P (ENeg c x).
Hypothesis Hnot : forall c x, P x -> P (ENot c x).
Hypothesis Hbin : forall c o a b, P a -> P b -> P (EBin c o a b).
Fixpoint expr_ind2 (e : expr) : P e :=
  match e with
  | EUnary c i => Hu c i
  | EArray c i args => Ha c i args ((fix go (l : list expr) : Forall P l :=
                                       match l with [] => Forall_nil _ | x :: r => Forall_cons _ (expr_ind2 x) (go r) end) args)
  | ESng c b => Hs c b | EDbl c b => Hd c b | EInt c n => Hi c n | EStr c s => Hst c s
  | ENeg c x => Hneg c x (expr_ind2 x)
  | ENot c x => Hnot c x (expr_ind2 x)
  | EBin c o a b => Hbin c o a b (expr_ind2 a) (expr_ind2 b)
  end.
End ExprInd.

Section StmtInd.
Variable P : stmt -> Prop.
Hypothesis Hif : forall c p th el, Forall P th -> Forall P el -> P (SIf c p th el).
Hypothesis Hother : forall s, match s with SIf _ _ _ _ => False | _ => True end -> P s.
Fixpoint stmt_ind2 (s : stmt) : P s :=
  let go := fix go (l : list stmt) : Forall P l :=
              match l with [] => Forall_nil _ | x :: r => Forall_cons _ (stmt_ind2 x) (go r) end in
  match s as s0 return P s0 with
  | SIf c p th el => Hif c p th el (go th) (go el)
  | s' => Hother s' I
  end.
End StmtInd.

Definition pres (R : link -> link -> Prop) {A} (m : LM A) : Prop := forall l l' x, m l = (l', x) -> R l l'.

Section Pres.
Variable R : link -> link -> Prop.
Hypothesis R_refl : forall l, R l l.
Hypothesis R_trans : forall a b c, R a b -> R b c -> R a c.

(* lret, lfail, lfail_e and lift are of this form *)
Lemma pres_const {A} (x0 : res A) : pres R (fun l => (l, x0)).
Proof. intros l l' x H. injection H as <- _. apply R_refl. Qed.

Lemma pres_bind {A B} (m : LM A) (f : A -> LM B) : pres R m -> (forall a, pres R (f a)) -> pres R (lbind m f).
Proof.
  intros Hm Hf l l' x H. unfold lbind in H. destruct (m l) as [l1 r] eqn:E. specialize (Hm l l1 r E).
  destruct r as [a | e | |]; [exact (R_trans _ _ _ Hm (Hf a l1 l' x H)) | | |]; injection H as <- _; exact Hm.
Qed.

Lemma pres_fold {A X} (xs : list X) (step : LM A -> X -> LM A) :
  (forall m x, In x xs -> pres R m -> pres R (step m x)) -> forall m0, pres R m0 -> pres R (fold_left step xs m0).
Proof.
  induction xs as [| x r IH]; intros Hs m0 H0; cbn [fold_left]; [exact H0 |].
  apply IH; [intros m y Hy; apply Hs; right; exact Hy | apply Hs; [left; reflexivity | exact H0]].
Qed.
End Pres.

(* One walk for all instances: `cst` and `bnd` are pres_const and pres_bind for the instance's relation; the primitives and
   the code generator's functions already done are hints in the database pres; `prim` disposes of the primitives that
   need more than a hint (side conditions, binders of fresh symbols). *)
Create HintDb pres.
Ltac walk cst bnd prim :=
  repeat first
    [ apply cst
    | solve [auto with pres]
    | prim
    | apply bnd; [| intros ?]
    | match goal with |- _ (match ?x with _ => _ end) => destruct x end
    | match goal with |- _ (if ?x then _ else _) => destruct x end ].

Ltac walk_fold fld w H :=
  apply fld; [let m := fresh "m" in let x := fresh "x" in let Hin := fresh "Hin" in let Hm := fresh "Hm" in
              intros m x Hin Hm; try (rewrite Forall_forall in H; specialize (H x Hin)); w | w].

(* name the fragments of the sub-expressions and variables in the goal, with the instance's fact about each *)
Ltac sub_frags ce cv :=
  repeat match goal with
         | |- context [cg_expr ?e] => let H := fresh "Hf" in pose proof (ce e) as H; destruct (cg_expr e) as [? ?]; cbn [fst snd] in H
         | |- context [cg_var ?v] => let H := fresh "Hf" in pose proof (cv v) as H; destruct (cg_var v) as [? ?]; cbn [fst snd] in H
         end.

(* F describes the fragments that may be appended; a fragment generated on the empty link is one *)
Set Implicit Arguments.
Record frag_rel (R : link -> link -> Prop) (F : link -> Prop) : Prop := {
  fr_refl : forall l, R l l;
  fr_trans : forall a b c, R a b -> R b c -> R a c;
  fr_empty : forall l, R link_empty l -> F l;
  fr_push : forall op, pres R (l_push op);
  fr_append : forall f, F f -> pres R (l_append f) }.
Unset Implicit Arguments.

Section Frags.
Context {R : link -> link -> Prop} {F : link -> Prop} (W : frag_rel R F).

Ltac fw := walk (@pres_const R (fr_refl W)) (@pres_bind R (fr_trans W))
  ltac:(first [apply (fr_push W) | apply (fr_append W); assumption]).

Lemma run_frag_pres (m : LM col) : pres R m -> F (snd (fst (run_frag m))).
Proof.
  intros H. apply (fr_empty W). unfold run_frag. destruct (m link_empty) as [l [c | e | |]] eqn:E; exact (H _ _ _ E).
Qed.

(* the form in which cg_stmt uses run_frag *)
Lemma fin_pres (pre : list error) (m : LM col) :
  pres R m -> F (snd (fst (let '(f, errs) := run_frag m in (f, pre ++ errs)))).
Proof. intros H. pose proof (run_frag_pres m H) as G. destruct (run_frag m) as [f errs]. exact G. Qed.

Lemma pres_lit_len n : pres R (lit_len n).
Proof. unfold lit_len. fw. Qed.
Lemma pres_test v s : pres R (test_for_built_in v s).
Proof. unfold test_for_built_in. fw. Qed.
Hint Resolve pres_lit_len pres_test : pres.
Lemma pres_push_as_expression v : F (vi_link v) -> pres R (push_as_expression v).
Proof. intros H. unfold push_as_expression. fw. Qed.
Lemma pres_push_as_pop v : F (vi_link v) -> pres R (push_as_pop v).
Proof. intros H. unfold push_as_pop. fw. Qed.
Lemma pres_push_as_pop_unary v : pres R (push_as_pop_unary v).
Proof. unfold push_as_pop_unary. fw. Qed.
Lemma pres_push_as_dim v : F (vi_link v) -> pres R (push_as_dim v).
Proof. intros H. unfold push_as_dim. fw. Qed.
Lemma pres_append_all fs : Forall (fun f : frag => F (snd f)) fs -> pres R (append_all fs).
Proof.
  intros H. unfold append_all. apply pres_fold; [| fw]. intros m f Hin Hm. rewrite Forall_forall in H. specialize (H f Hin). fw.
Qed.
Lemma pres_sym_of_line n : pres R (sym_of_line n).
Proof. unfold sym_of_line. fw. Qed.
Lemma pres_pop_line_number f : pres R (pop_line_number f).
Proof. unfold pop_line_number. fw. Qed.
Lemma pres_val_of_line n : pres R (val_of_line n).
Proof. unfold val_of_line. fw. Qed.
Hint Resolve pres_pop_line_number pres_val_of_line : pres.
Lemma pres_cg_range c a b op : pres R (cg_range c a b op).
Proof. unfold cg_range. fw. Qed.
Lemma pres_cg_deftype c a b op : pres R (cg_deftype c a b op).
Proof. unfold cg_deftype. fw. Qed.
Lemma pres_simple c op : pres R (simple c op).
Proof. unfold simple. fw. Qed.

Lemma sub_frags_pres (args : list expr) :
  Forall (fun x => F (snd (fst (cg_expr x)))) args -> Forall (fun f : frag => F (snd f)) (map fst (map cg_expr args)).
Proof. intros H. rewrite map_map. apply Forall_map. exact H. Qed.

Lemma array_item_pres c i (args : list expr) :
  Forall (fun x => F (snd (fst (cg_expr x)))) args ->
  F (vi_link (fst (cg_var (VArray c i args)))).
Proof.
  intros H. cbn [cg_var].
  pose proof (run_frag_pres _ (pres_bind R (fr_trans W) _ _ (pres_append_all _ (sub_frags_pres args H)) (fun _ => pres_const R (fr_refl W) (Ok c)))) as Hv.
  destruct (run_frag _) as [vf verrs]. cbn [fst snd] in *. destruct verrs; exact Hv.
Qed.

Theorem cg_expr_pres : forall e, F (snd (fst (cg_expr e))).
Proof.
  induction e as [c i | c i args IH | c b | c b | c n | c s | c x IH | c x IH | c o a b IHa IHb] using expr_ind2; cbn [cg_expr];
    try solve [apply run_frag_pres; fw].
  1: { apply run_frag_pres, pres_push_as_expression. exact (fr_empty W _ (fr_refl W _)). }
  1: { pose proof (array_item_pres c i args IH) as Hvi. cbn [cg_var] in Hvi.
       destruct (run_frag _) as [vf verrs]. cbn [fst] in Hvi.
       match goal with |- context [push_as_expression ?vi] =>
         pose proof (run_frag_pres _ (pres_push_as_expression vi Hvi)) as He; destruct (run_frag (push_as_expression vi)) as [ef eerrs] end.
       exact He. }
  (* the operators: the operands' fragments, then one instruction *)
  all: repeat match goal with |- context [cg_expr ?x] => destruct (cg_expr x) as [? ?] end; cbn [fst snd] in *.
  all: match goal with |- context [run_frag ?m] => pose proof (run_frag_pres m ltac:(fw)) as Hv; destruct (run_frag m) as [? ?] end; exact Hv.
Qed.

Lemma exprs_pres (l : list expr) : Forall (fun f : frag => F (snd f)) (map fst (map cg_expr l)).
Proof. apply sub_frags_pres, Forall_forall. intros x _. apply cg_expr_pres. Qed.

Theorem cg_var_pres : forall v, F (vi_link (fst (cg_var v))).
Proof.
  destruct v as [c i | c i args]; [exact (fr_empty W _ (fr_refl W _)) |].
  apply array_item_pres, Forall_forall. intros x _. apply cg_expr_pres.
Qed.

Lemma vars_pres (l : list var) : Forall (fun v => F (vi_link v)) (map fst (map cg_var l)).
Proof. rewrite map_map. apply Forall_map, Forall_forall. intros v _. apply cg_var_pres. Qed.
End Frags.

(* a statement without sub-statements: name the fragments of its parts, then walk the action handed to run_frag; the
   loops over a list of expressions or variables use the fact about each element (`wf`) *)
Ltac stmt_walk W ce cv fin w wf :=
  cbn [cg_stmt]; sub_frags ce cv;
  try match goal with l : list expr |- _ => pose proof (exprs_pres W l) as Hl end;
  try match goal with l : list var |- _ => pose proof (vars_pres W l) as Hl end;
  apply fin; try solve [w]; try solve [w; match goal with H : Forall _ (map fst (map _ _)) |- _ => wf H end].

(* DATA items: the constant moves to the data segment; only instructions and data change *)
Lemma transform_reads {X} (g : link -> X) c f :
  (forall l ops d, g (set_data (set_ops l ops) d) = g l) -> g (fst (l_transform_to_data c f)) = g f.
Proof.
  (* the cases in the order in which the compiled match takes them: first instruction, then the rest of the list *)
  intros Hg. unfold l_transform_to_data. generalize (l_ops f). intros [| a t]; [reflexivity |].
  destruct a; destruct t as [| b2 [| b3 t3]]; try reflexivity; try exact (Hg f [] _).
  destruct b2; try exact (Hg f [] _). destruct (op_negate v); exact (Hg f [] _).
Qed.
