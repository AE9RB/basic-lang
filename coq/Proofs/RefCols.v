(* C19 -- the code generator hands the parser's ranges on.  Every reference to a program line that the code of a statement
   leaves for the linker (GOTO, GOSUB, ON.., THEN n, ELSE n, RESTORE n, RUN n, at any nesting of IF) carries the column range
   of the line-number operand it came from; with Proofs/ParseCols.v: exactly the range of a number token of the line. *)
From BL Require Import Base.Prelude Base.Floats Mach.Val Lang.Token Lang.Ast Mach.Compile Proofs.Reloc Proofs.DataSeg
     Proofs.SymSeg Proofs.ParseCols.
Local Open Scope N_scope.

Section RefCols.
Variable P : col -> Prop.

(* references to program lines (non-negative symbols) carry a column satisfying P *)
Definition Refs (l : link) : Prop := forall a c s, In (a, (c, s)) (l_unlinked l) -> (0 <= s)%Z -> P c.
(* ... and the symbol counter is not positive, so fresh symbols are negative *)
Definition RInv (l : link) : Prop := (l_cur l <= 0)%Z /\ Refs l.
Definition rf {A} (m : LM A) : Prop := forall l l' x, m l = (l', x) -> RInv l -> RInv l'.

(* rf is pres of this relation *)
Definition rinv_step (l l' : link) : Prop := RInv l -> RInv l'.

Lemma rf_const {A} (x0 : res A) : rf (fun l => (l, x0)).
Proof. exact (pres_const rinv_step (fun _ H => H) x0). Qed.
Lemma rf_bind {A B} (m : LM A) (f : A -> LM B) : rf m -> (forall a, rf (f a)) -> rf (lbind m f).
Proof. exact (pres_bind rinv_step (fun a b c H1 H2 H => H2 (H1 H)) m f). Qed.
Lemma rf_fold {A X} (xs : list X) (step : LM A -> X -> LM A) :
  (forall m x, In x xs -> rf m -> rf (step m x)) -> forall m0, rf m0 -> rf (fold_left step xs m0).
Proof. exact (pres_fold rinv_step xs step). Qed.
(* a result that is used further on: the walk has to see its value *)
Lemma rf_bind_ret {A B} (a : A) (f : A -> LM B) : rf (f a) -> rf (lbind (lret a) f).
Proof. intros H l l' x E. unfold lbind, lret in E. exact (H l l' x E). Qed.

Lemma rf_same {A} (m : LM A) : (forall l l' x, m l = (l', x) -> l_unlinked l' = l_unlinked l /\ l_cur l' = l_cur l) -> rf m.
Proof. intros H l l' x E [Hc Hr]. destruct (H l l' x E) as [Hu Hcu]. split; [rewrite Hcu; exact Hc |]. unfold Refs. rewrite Hu. exact Hr. Qed.
Lemma rf_push op : rf (l_push op).
Proof. apply rf_same. intros l l' x H. unfold l_push in H. injection H as <- _. split; reflexivity. Qed.
Lemma rf_add_while k c s : rf (l_add_while k c s).
Proof. apply rf_same. intros l l' x H. injection H as <- _. split; reflexivity. Qed.
Lemma rf_push_symbol s : rf (l_push_symbol s).
Proof. apply rf_same. intros l l' x H. unfold l_push_symbol in H. injection H as <- _. split; reflexivity. Qed.

Lemma rf_unlink_here c s : ((0 <= s)%Z -> P c) -> rf (l_unlink_here c s).
Proof.
  intros Hp l l' x H [Hc Hr]. injection H as <- _. split; [exact Hc |]. intros a c' s' Hin Hs. cbn [l_unlinked] in Hin.
  apply nassoc_set_in in Hin. destruct Hin as [[_ E] | Hin]; [injection E as -> ->; exact (Hp Hs) | exact (Hr a c' s' Hin Hs)].
Qed.

Lemma rf_scope {B} (body : Z -> LM B) : (forall s, (s < 0)%Z -> rf (body s)) -> rf (lbind l_next_symbol body).
Proof.
  intros Hb l l' x H [Hc Hr]. unfold lbind, l_next_symbol in H.
  match type of H with body ?c ?l1 = _ => apply (Hb c ltac:(lia) l1 l' x H) end.
  split; [cbn [l_cur]; lia | exact Hr].
Qed.

(* the references of the fragment keep their columns; those to local symbols are re-based and stay negative *)
Lemma rf_append f : RInv f -> rf (l_append f).
Proof.
  intros [Hcf Hrf] l l' x H [Hc Hr].
  assert (G : RInv (merged f l)).
  { split; [unfold merged; cbn [l_cur]; lia |]. intros a c s Hin Hs. apply merged_unlinked_in in Hin.
    destruct Hin as [Hin | [[a0 [c0 s0]] [He [-> Es]]]]; [exact (Hr a c s Hin Hs) |].
    unfold rebase in Es. cbn [fst snd] in *. destruct (Z.ltb_spec s0 0); [lia |]. subst s. exact (Hrf a0 c0 s0 He Hs). }
  destruct (l_append_cases f l l' x H) as [[-> _] | [[-> _] | [-> _]]]; [split; assumption | exact G | exact G].
Qed.

Lemma rinv_empty : RInv link_empty.
Proof. split; [cbn; lia | intros a c s []]. Qed.

Lemma rf_rel : frag_rel rinv_step RInv.
Proof.
  split; [intros l H; exact H | intros a b c H1 H2 H; exact (H2 (H1 H)) | intros l H; exact (H rinv_empty) | exact rf_push | exact rf_append].
Qed.
End RefCols.

#[export] Hint Resolve rf_push rf_add_while rf_push_symbol rf_append : pres.
Ltac rfy := walk rf_const rf_bind
  ltac:(first [ apply rf_unlink_here; solve [intros; lia | intros; cbn [fst snd]; auto]
              | apply rf_scope; intros ? ?
              | apply rf_bind_ret; cbn [fst snd] ]).
Ltac rfy_fold H := walk_fold rf_fold ltac:(rfy) H.

Section Helpers.
Variable P : col -> Prop.
Notation rf := (rf P).
Notation RInv := (RInv P).

Lemma rf_lit_len n : rf (lit_len n). Proof. exact (pres_lit_len (rf_rel P) n). Qed.
Lemma rf_test v s : rf (test_for_built_in v s). Proof. exact (pres_test (rf_rel P) v s). Qed.
Lemma rf_push_as_expression v : RInv (vi_link v) -> rf (push_as_expression v).
Proof. exact (pres_push_as_expression (rf_rel P) v). Qed.
Lemma rf_push_as_pop v : RInv (vi_link v) -> rf (push_as_pop v).
Proof. exact (pres_push_as_pop (rf_rel P) v). Qed.
Lemma rf_push_as_pop_unary v : rf (push_as_pop_unary v).
Proof. exact (pres_push_as_pop_unary (rf_rel P) v). Qed.
Lemma rf_push_as_dim v : RInv (vi_link v) -> rf (push_as_dim v).
Proof. exact (pres_push_as_dim (rf_rel P) v). Qed.
Lemma rf_append_all fs : Forall (fun f : frag => RInv (snd f)) fs -> rf (append_all fs).
Proof. exact (pres_append_all (rf_rel P) fs). Qed.
End Helpers.

#[export] Hint Resolve rf_lit_len rf_test rf_push_as_expression rf_push_as_pop rf_push_as_pop_unary rf_push_as_dim rf_append_all : pres.

Section Stmts.
Variable P : col -> Prop.
Notation rf := (rf P).
Notation RInv := (RInv P).

Lemma rf_push_jump c s : ((0 <= s)%Z -> P c) -> rf (l_push_jump c s). Proof. intros H. unfold l_push_jump. rfy. Qed.
Lemma rf_push_ifnot c s : ((0 <= s)%Z -> P c) -> rf (l_push_ifnot c s). Proof. intros H. unfold l_push_ifnot. rfy. Qed.
Lemma rf_push_return_val c s : ((0 <= s)%Z -> P c) -> rf (l_push_return_val c s). Proof. intros H. unfold l_push_return_val. rfy. Qed.
Lemma rf_sym_of_line n : rf (sym_of_line n). Proof. exact (pres_sym_of_line (rf_rel P) n). Qed.
Hint Resolve rf_sym_of_line : pres.
Lemma rf_push_for c : rf (l_push_for c). Proof. unfold l_push_for. rfy. Qed.
Lemma rf_push_wend c : rf (l_push_wend c). Proof. unfold l_push_wend. rfy. Qed.
Lemma rf_push_while c e : RInv e -> rf (l_push_while c e). Proof. intros H. unfold l_push_while. rfy. Qed.
Lemma rf_push_def_fn c name vars body : RInv body -> rf (l_push_def_fn c name vars body).
Proof.
  intros H. unfold l_push_def_fn. rfy. apply rf_fold; [| rfy]. intros m x _ Hm. rfy.
Qed.
Lemma rf_push_restore c n : (n <> None -> P c) -> rf (l_push_restore c n).
Proof. intros H. unfold l_push_restore. destruct n as [k |]; [| rfy]. apply rf_bind; [apply rf_unlink_here; intros _; apply H; discriminate | intros _; rfy]. Qed.
Lemma rf_push_run c n : (n <> None -> P c) -> rf (l_push_run c n).
Proof. intros H. unfold l_push_run. apply rf_bind; [rfy | intros _]. destruct n as [k |]; [| rfy].
  apply rf_bind; [apply rf_unlink_here; intros _; apply H; discriminate | intros _; rfy]. Qed.
Lemma rf_pop_line_number f : rf (pop_line_number f). Proof. exact (pres_pop_line_number (rf_rel P) f). Qed.
Lemma rf_val_of_line n : rf (val_of_line n). Proof. exact (pres_val_of_line (rf_rel P) n). Qed.
Lemma rf_simple c op : rf (simple c op). Proof. exact (pres_simple (rf_rel P) c op). Qed.
Hint Resolve rf_push_for rf_push_wend rf_push_while rf_push_def_fn rf_pop_line_number rf_val_of_line rf_simple : pres.
Lemma rf_cg_range c a b op : rf (cg_range c a b op). Proof. exact (pres_cg_range (rf_rel P) c a b op). Qed.
Lemma rf_cg_deftype c a b op : rf (cg_deftype c a b op). Proof. exact (pres_cg_deftype (rf_rel P) c a b op). Qed.
Lemma rf_on_targets c : forall ts se, Forall (fun t : frag => P (fst t)) ts -> rf (cg_on_targets c ts se).
Proof.
  induction ts as [| t r IH]; intros se H; cbn [cg_on_targets]; [rfy |]. inversion H as [| ? ? Ht Hr]; subst.
  destruct (link_line_number (snd t)); rfy.
Qed.
End Stmts.

#[export] Hint Resolve rf_sym_of_line rf_push_for rf_push_wend rf_push_while rf_push_def_fn rf_pop_line_number rf_val_of_line rf_simple
  rf_cg_range rf_cg_deftype : pres.

Section Final.
Variable all : list token.
Notation P := (num_range all).

Lemma fin_rinv (pre : list error) (m : LM col) :
  rf P m -> RInv P (snd (fst (let '(f, errs) := run_frag m in (f, pre ++ errs)))).
Proof. exact (fin_pres (rf_rel P) pre m). Qed.

Lemma lit_frag : forall c b, cg_expr (ESng c b) = ((c, mkLink 0 [OpLiteral (VSng b)] [] 0 false [] [] []), []).
Proof. intros c b. reflexivity. Qed.
Lemma marker_no_line : link_line_number (mkLink 0 [OpLiteral (VSng (f32_of_Z (-1)))] [] 0 false [] [] []) = Err (mkErr E_UndefinedLine None (0, 0))
                       \/ exists e, link_line_number (mkLink 0 [OpLiteral (VSng (f32_of_Z (-1)))] [] 0 false [] [] []) = Err e.
Proof. right. vm_compute. eexists. reflexivity. Qed.

Lemma goto_refs c e : good_lnum all e -> RInv P (snd (fst (cg_stmt (SGoto c e)))).
Proof.
  intros Hg. destruct e as [| | c0 b0 | | | | | |]; try contradiction. cbn [good_lnum] in Hg.
  cbn [cg_stmt]. rewrite lit_frag. apply fin_rinv. unfold pop_line_number. cbn [snd fst].
  destruct (link_line_number _); rfy.
Qed.
Lemma gosub_refs c e : good_lnum all e -> RInv P (snd (fst (cg_stmt (SGosub c e)))).
Proof.
  intros Hg. destruct e as [| | c0 b0 | | | | | |]; try contradiction. cbn [good_lnum] in Hg.
  cbn [cg_stmt]. rewrite lit_frag. apply fin_rinv. unfold pop_line_number. cbn [snd fst].
  destruct (link_line_number _); rfy.
Qed.

Lemma str_frag : forall c s, cg_expr (EStr c s) = ((c, mkLink 0 [OpLiteral (VStr s)] [] 0 false [] [] []), []).
Proof. intros. reflexivity. Qed.
Lemma str_no_line : forall s, exists e, link_line_number (mkLink 0 [OpLiteral (VStr s)] [] 0 false [] [] []) = Err e.
Proof. intros. eexists. cbn. reflexivity. Qed.

Lemma targets_cols : forall l, Forall (good_lnum all) l -> Forall (fun t : frag => P (fst t)) (map fst (map cg_expr l)).
Proof.
  induction l as [| e r IH]; intros H; cbn [map]; [constructor |]. inversion H as [| ? ? He Hr]; subst.
  constructor; [| exact (IH Hr)]. destruct e; try contradiction. rewrite lit_frag. exact He.
Qed.

Lemma target_line : forall e, good_target all e ->
  (match link_line_number (snd (fst (cg_expr e))) with Ok n => n | _ => None end) <> None -> P (fst (fst (cg_expr e))).
Proof.
  intros e Hg Hn. destruct e as [| | c0 b0 | | | c0 s0 | | |]; try contradiction; cbn [good_target] in Hg.
  rewrite lit_frag in *. cbn [fst snd] in *. destruct Hg as [-> | Hg]; [| exact Hg].
  destruct marker_no_line as [E | [e0 E]]; rewrite E in Hn; contradiction.
Qed.

Lemma restore_refs c e : good_target all e -> RInv P (snd (fst (cg_stmt (SRestore c e)))).
Proof.
  intros Hg. cbn [cg_stmt]. pose proof (target_line e Hg) as Ht. destruct (cg_expr e) as [f x]. cbn [fst snd] in Ht.
  apply fin_rinv. apply rf_bind; [apply rf_push_restore; exact Ht | intros _; rfy].
Qed.
Lemma run_refs c e : good_target all e -> RInv P (snd (fst (cg_stmt (SRun c e)))).
Proof.
  intros Hg. cbn [cg_stmt]. pose proof (target_line e Hg) as Ht. destruct (cg_expr e) as [f x]. cbn [fst snd] in Ht.
  apply fin_rinv. apply rf_bind; [| intros _; rfy]. destruct (link_string (snd f)); [rfy | apply rf_push_run; exact Ht].
Qed.
Lemma on_refs (gosub : bool) c e l : Forall (good_lnum all) l ->
  RInv P (snd (fst (cg_stmt (if gosub then SOnGosub c e l else SOnGoto c e l)))).
Proof.
  intros Hg. pose proof (targets_cols l Hg) as Ht. pose proof (cg_expr_pres (rf_rel P) e) as He.
  destruct gosub; cbn [cg_stmt]; destruct (cg_expr e) as [ef x0]; cbn [fst snd] in He; apply fin_rinv.
  all: apply rf_bind; [rfy | intros lenv]; apply rf_scope; intros ret Hret.
  all: apply rf_bind; [first [apply rf_push_return_val; intros; lia | rfy] | intros _].
  all: do 3 (apply rf_bind; [rfy | intros _]).
  all: apply rf_bind; [apply rf_on_targets; exact Ht | intros se]; rfy.
Qed.

Theorem cg_stmt_refs : forall s, good_stmt all s -> RInv P (snd (fst (cg_stmt s))).
Proof.
  induction s as [c p th el IHth IHel | s Hs] using stmt_ind2; intros Hg.
  -
    apply good_if in Hg. destruct Hg as [Gth Gel].
    cbn [cg_stmt]. pose proof (cg_expr_pres (rf_rel P) p) as Hp. destruct (cg_expr p) as [pf x0]. cbn [fst snd] in Hp.
    assert (Hl : forall l, Forall (fun s => good_stmt all s -> RInv P (snd (fst (cg_stmt s)))) l -> good_stmts all l ->
                 Forall (fun f : frag => RInv P (snd f)) (map fst (map cg_stmt l))).
    { intros l HF HG. apply good_stmts_Forall in HG. rewrite map_map. apply Forall_map. rewrite Forall_forall in *.
      intros s Hin. exact (HF s Hin (HG s Hin)). }
    pose proof (Hl th IHth Gth) as Hth. pose proof (Hl el IHel Gel) as Hel.
    apply fin_rinv.
    apply rf_bind; [rfy |]. intros _. apply rf_scope. intros es Hes.
    apply rf_bind; [apply rf_push_ifnot; intros; lia |]. intros _.
    apply rf_bind; [apply rf_append_all; exact Hth |]. intros _.
    destruct (map cg_stmt el) as [| g0 gs] eqn:Eg; [rfy |].
    apply rf_scope. intros fs Hfs. apply rf_bind; [apply rf_push_jump; intros; lia |]. intros _. rfy.
  - destruct s; try contradiction; cbn [good_stmt] in Hg.
    all: try lazymatch goal with
         | |- RInv _ (snd (fst (cg_stmt (SGoto _ _)))) => apply goto_refs; exact Hg
         | |- RInv _ (snd (fst (cg_stmt (SGosub _ _)))) => apply gosub_refs; exact Hg
         | |- RInv _ (snd (fst (cg_stmt (SRestore _ _)))) => apply restore_refs; exact Hg
         | |- RInv _ (snd (fst (cg_stmt (SRun _ _)))) => apply run_refs; exact Hg
         | |- RInv _ (snd (fst (cg_stmt (SOnGoto ?c ?e ?l)))) => exact (on_refs false c e l Hg)
         | |- RInv _ (snd (fst (cg_stmt (SOnGosub ?c ?e ?l)))) => exact (on_refs true c e l Hg)
         end.
    all: stmt_walk (rf_rel P) (cg_expr_pres (rf_rel P)) (cg_var_pres (rf_rel P)) fin_rinv ltac:(rfy) rfy_fold.
    (* DATA *)
    apply rf_bind; [| intros _; rfy]. apply rf_fold; [| rfy]. intros m f Hin Hm. rewrite Forall_forall in Hl. specialize (Hl f Hin).
    apply rf_bind; [exact Hm |]. intros _. cbv beta in Hl. rewrite <- (transform_reads (RInv P) (fst f)) in Hl by reflexivity.
    destruct (l_transform_to_data (fst f) (snd f)) as [f' [u | e | |]]; cbn [fst] in Hl; rfy.
Qed.

End Final.
