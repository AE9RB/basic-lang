(* decimal rendering of line numbers and subscripts: reading back what dec_of_N prints gives the number, and every
   character printed is a digit *)
From BL Require Import Base.Prelude.
From Coq Require Import ZifyBool ZifyNat ZifyN.
Local Open Scope N_scope.
Ltac Zify.zify_post_hook ::= Z.div_mod_to_equations.

Lemma is_digit_48 d : d < 10 -> is_digit (48 + d) = true.
Proof. intros H. unfold is_digit. apply andb_true_intro. split; apply N.leb_le; lia. Qed.

Lemma dec_fuel_val : forall fuel n acc, n < 2 ^ N.of_nat fuel ->
  digits_val (dec_fuel fuel n acc) 0 = digits_val acc n.
Proof.
  induction fuel as [| f IH]; intros n acc Hn.
  - change (N.of_nat 0) with 0 in Hn. rewrite N.pow_0_r in Hn. assert (n = 0) by lia. subst. reflexivity.
  - cbn [dec_fuel]. assert (Hd : n mod 10 < 10) by (apply N.mod_lt; lia).
    assert (Hstep : digits_val ((48 + n mod 10) :: acc) (n / 10) = digits_val acc n).
    { cbn [digits_val]. rewrite (is_digit_48 _ Hd). f_equal.
      replace (48 + n mod 10 - 48) with (n mod 10) by lia. rewrite N.mul_comm. symmetry. apply N.div_mod. lia. }
    destruct (N.eqb_spec (n / 10) 0) as [Hq | Hq].
    + rewrite <- Hstep, Hq. reflexivity.
    + rewrite IH; [exact Hstep |].
      rewrite Nat2N.inj_succ, N.pow_succ_r' in Hn. 
      assert (n / 10 <= n / 2) by (apply N.div_le_compat_l; lia).
      assert (n / 2 < 2 ^ N.of_nat f) by (apply N.div_lt_upper_bound; lia). lia.
Qed.

Lemma dec_fuel_nonempty : forall fuel n acc, dec_fuel (S fuel) n acc <> [].
Proof.
  induction fuel as [| f IH]; intros n acc; cbn [dec_fuel].
  - destruct (n / 10 =? 0); discriminate.
  - destruct (n / 10 =? 0); [discriminate |]. apply IH.
Qed.

Theorem parse_dec_of_N : forall n, parse_udec (dec_of_N n) = Some n.
Proof.
  intros n. unfold parse_udec, dec_of_N.
  pose proof (dec_fuel_nonempty (N.to_nat (N.log2 n)) n []) as Hne.
  destruct (dec_fuel (S (N.to_nat (N.log2 n))) n []) eqn:E; [contradiction |].
  rewrite <- E, dec_fuel_val; [reflexivity |].
  rewrite Nat2N.inj_succ, N2Nat.id. destruct n as [| p]; [cbn; lia |].
  apply N.log2_spec. lia.
Qed.

Corollary dec_of_N_inj : forall a b, dec_of_N a = dec_of_N b -> a = b.
Proof. intros a b H. pose proof (parse_dec_of_N a) as Ha. rewrite H, parse_dec_of_N in Ha. congruence. Qed.

Lemma dec_fuel_digits : forall fuel n acc, all_b is_digit acc = true -> all_b is_digit (dec_fuel fuel n acc) = true.
Proof.
  induction fuel as [| f IH]; intros n acc Ha; [exact Ha |]. cbn [dec_fuel].
  assert (Hd : n mod 10 < 10) by (apply N.mod_lt; lia).
  assert (Ha' : all_b is_digit ((48 + n mod 10) :: acc) = true) by (cbn [all_b]; rewrite (is_digit_48 _ Hd); exact Ha).
  destruct (n / 10 =? 0); [exact Ha' | apply IH; exact Ha'].
Qed.
Lemma dec_of_N_digits n : all_b is_digit (dec_of_N n) = true.
Proof. apply dec_fuel_digits. reflexivity. Qed.
