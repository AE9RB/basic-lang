(* C10: no identifier the scanner produces contains a '.', so the mangled parameter names FNX.P of user functions cannot
   collide with any variable a program can name. *)
From BL Require Import Base.Prelude Lang.Token Lang.Lex Lang.Parse Proofs.LexSteps.
Local Open Scope N_scope.

Definition nodot (s : str) : bool := forallb (fun c => negb (c =? 46)) s.
Definition tok_ok (t : token) : Prop := match t with TIdent i => nodot (ident_str i) = true | _ => True end.
Definition toks_ok (ts : list token) : Prop := Forall tok_ok ts.

Lemma nodot_app a b : nodot (a ++ b) = nodot a && nodot b. Proof. apply forallb_app. Qed.
Lemma nodot_firstn n s : nodot s = true -> nodot (firstn n s) = true.
Proof. revert s. induction n as [| n IH]; intros [| c r] H; cbn in *; try reflexivity. apply andb_prop in H. destruct H as [Hc Hr]. rewrite Hc. exact (IH r Hr). Qed.
Lemma nodot_skipn n s : nodot s = true -> nodot (skipn n s) = true.
Proof. revert s. induction n as [| n IH]; intros [| c r] H; cbn in *; try assumption; try reflexivity. apply andb_prop in H. exact (IH r (proj2 H)). Qed.

Lemma no_ident_ok t : no_ident t -> tok_ok t. Proof. destruct t; cbn; tauto. Qed.

(* the token of the best match comes from the table, or from the match so far *)
Lemma best_keyword_no_ident s : forall tbl best i l t, best_keyword tbl s best = Some (i, l, t) ->
  (forall i' l' t', best = Some (i', l', t') -> no_ident t') -> Forall (fun e => no_ident (snd e)) tbl -> no_ident t.
Proof.
  induction tbl as [| [k t0] r IH]; intros best i l t H Hb Ht; cbn [best_keyword] in H; [exact (Hb i l t H) |].
  inversion Ht as [| ? ? Ht0 Htr]; subst. apply (IH _ _ _ _ H); [| exact Htr].
  intros i' l' t' E. destruct (find_sub k s) as [j |]; [| exact (Hb i' l' t' E)].
  destruct best as [[[bi bl] bt] |].
  - destruct (j <? bi); [injection E as _ _ <-; exact Ht0 | exact (Hb i' l' t' E)].
  - injection E as _ _ <-. exact Ht0.
Qed.

Lemma keyword_no_ident s i l t : best_keyword keyword_table s None = Some (i, l, t) -> no_ident t.
Proof.
  intros H. apply (best_keyword_no_ident s _ _ _ _ _ H); [discriminate |]. unfold keyword_table. repeat constructor.
Qed.

(* keyword crunching only cuts the text *)
Lemma scan_alphabetic_ok : forall fuel s acc, nodot s = true -> toks_ok acc ->
  toks_ok (fst (scan_alphabetic fuel s acc)) /\ nodot (snd (scan_alphabetic fuel s acc)) = true.
Proof.
  induction fuel as [| f IH]; intros s acc Hs Ha; cbn [scan_alphabetic]; [split; [apply Forall_rev; exact Ha | exact Hs] |].
  destruct (best_keyword keyword_table s None) as [[[idx len] tok] |] eqn:Eb; [| split; [apply Forall_rev; exact Ha | exact Hs]].
  pose proof (no_ident_ok tok (keyword_no_ident s idx len tok Eb)) as Htok.
  destruct (idx =? 0).
  - apply IH; [apply nodot_skipn; exact Hs | constructor; assumption].
  - apply IH; [apply nodot_skipn; exact Hs |]. constructor; [exact Htok |]. constructor; [| exact Ha]. cbn. apply nodot_firstn. exact Hs.
Qed.

Lemma to_upper_dot c : to_upper c = 46 -> c = 46.
Proof. unfold to_upper, is_lower. destruct (N.leb_spec 97 c), (N.leb_spec c 122); cbn; lia. Qed.

(* the identifier scanner: every character it takes is a letter, a digit or a type suffix *)
Lemma alpha_ok : forall cs s digit pend, (match cs with c :: _ => c <> 46 | [] => True end) -> nodot s = true -> toks_ok pend ->
  toks_ok (fst (alpha_loop cs s digit pend)).
Proof.
  induction cs as [| c0 rest IH]; intros s digit pend Hc Hs Hp; cbn [alpha_loop]; [exact Hp |].
  set (ch := to_upper c0). set (s1 := s ++ [ch]).
  assert (Hs1 : nodot s1 = true).
  { unfold s1. rewrite nodot_app, Hs. cbn. destruct (N.eqb_spec ch 46) as [E | _]; [exfalso; apply Hc; exact (to_upper_dot c0 E) | reflexivity]. }
  assert (Hid : forall mk, (forall x, ident_str (mk x) = x) -> toks_ok (pend ++ [TIdent (mk s1)])).
  { intros mk Hmk. apply Forall_app. split; [exact Hp |]. constructor; [cbn; rewrite Hmk; exact Hs1 | constructor]. }
  destruct (ch =? 36); [cbn [fst]; apply (Hid IString); reflexivity |].
  destruct (ch =? 33); [cbn [fst]; apply (Hid ISingle); reflexivity |].
  destruct (ch =? 35); [cbn [fst]; apply (Hid IDouble); reflexivity |].
  destruct (ch =? 37); [cbn [fst]; apply (Hid IInteger); reflexivity |].
  pose proof (scan_alphabetic_ok (List.length s1) s1 [] Hs1 ltac:(constructor)) as [Hst Hs2].
  destruct (scan_alphabetic (List.length s1) s1 []) as [toks s2] eqn:Esc. cbn [fst snd] in Hst, Hs2.
  assert (Hpt : toks_ok (pend ++ toks)) by (apply Forall_app; split; assumption).
  assert (Hfinal : toks_ok (pend ++ toks ++ match s2 with [] => [] | _ => [TIdent (IPlain s2)] end)).
  { rewrite app_assoc. apply Forall_app. split; [exact Hpt |]. destruct s2; [constructor |]. constructor; [exact Hs2 | constructor]. }
  destruct rest as [| pk r]; [exact Hfinal |].
  destruct (is_alpha pk) eqn:Ea.
  - assert (Hpk : pk <> 46) by (intros ->; discriminate).
    destruct (digit || is_digit ch); [cbn [fst]; apply (Hid IPlain); reflexivity |]. apply IH; [exact Hpk | exact Hs1 | exact Hp].
  - destruct (is_digit pk || is_suffix_chr pk) eqn:Ed; [| exact Hfinal].
    assert (Hpk : pk <> 46) by (intros ->; discriminate).
    destruct s2 as [| c2 r2]; [exact Hpt |].
    apply IH; [exact Hpk | exact Hs2 | exact Hpt].
Qed.

(* the token loop: words are the only identifiers *)
Lemma scan1_ok pk r toks next : scan1 (pk :: r) = Ok (toks, next) -> toks_ok toks.
Proof.
  intros E. destruct (scan1_spec pk r) as (toks' & next' & E' & _ & Hk). rewrite E in E'. injection E' as <- _.
  destruct Hk as [Hn | (Ea & tail & Hn & ->)].
  - exact (Forall_impl _ no_ident_ok Hn).
  - apply Forall_app. split; [| exact (Forall_impl _ no_ident_ok Hn)].
    apply alpha_ok; [intros ->; discriminate Ea | reflexivity | constructor].
Qed.

Lemma scan_toks_ok : forall fuel cs ts, scan fuel cs = Ok ts -> toks_ok ts.
Proof.
  induction fuel as [| f IH]; intros cs ts H; [discriminate |]. cbn [scan] in H.
  destruct cs as [| pk r]; [injection H as <-; constructor |].
  destruct (scan1 (pk :: r)) as [[toks next] | | |] eqn:E1; try discriminate. cbn [bind fst snd] in H.
  pose proof (scan1_ok _ _ _ _ E1) as Hk. destruct next as [rest |]; [| injection H as <-; exact Hk].
  destruct (scan f rest) as [ts' | | |] eqn:E2; try discriminate. injection H as <-.
  apply Forall_app. split; [exact Hk | exact (IH _ _ E2)].
Qed.

(* the post passes only drop tokens, merge them into words and operators, or insert blanks:
   they keep any property of tokens that every token other than an identifier has *)
Lemma Forall_firstn {A} (P : A -> Prop) n l : Forall P l -> Forall P (firstn n l).
Proof. intros H. revert n. induction H as [| x l Hx _ IH]; intros [| n]; cbn [firstn]; constructor; [exact Hx | apply IH]. Qed.
Lemma Forall_skipn {A} (P : A -> Prop) n l : Forall P l -> Forall P (skipn n l).
Proof. intros H. revert n. induction H as [| x l Hx Hl IH]; intros [| n]; cbn [skipn]; [constructor | constructor | constructor; assumption | apply IH]. Qed.

Lemma triple_at_no_ident a b c t : triple_at a b c = Some t -> no_ident t.
Proof.
  unfold triple_at. destruct b; try discriminate. destruct a as [| | | | o | i | | | | |]; try discriminate.
  - destruct o; try discriminate; destruct c as [| | | | o2 | | | | | |]; try discriminate; destruct o2; try discriminate; intros H; injection H as <-; exact I.
  - destruct i; try discriminate. destruct c as [| | | w | | i2 | | | | |]; try discriminate.
    + destruct w; try discriminate. destruct (str_eqb _ _); intros H; [injection H as <-; exact I | discriminate].
    + destruct i2; try discriminate. destruct (_ && _); intros H; [injection H as <-; exact I | discriminate].
Qed.

Lemma double_at_no_ident a b t : double_at a b = Some t -> no_ident t.
Proof.
  unfold double_at. destruct a as [| | | | o | | | | | |]; try discriminate. destruct o; try discriminate;
    destruct b as [| | | | o2 | | | | | |]; try discriminate; destruct o2; try discriminate; intros H; injection H as <-; exact I.
Qed.

Section PostPasses.
Variable Q : token -> Prop.
Hypothesis HQ : forall t, no_ident t -> Q t.

Lemma splice_ok ts i n x : Forall Q ts -> Q x -> Forall Q (splice ts i n x).
Proof.
  intros H Hx. unfold splice, firstnN, skipnN. apply Forall_app. split; [apply Forall_firstn; exact H |].
  constructor; [exact Hx | apply Forall_skipn; exact H].
Qed.

Lemma apply_locs_ok ts locs n : Forall Q ts -> Forall (fun it : N * token => Q (snd it)) locs -> Forall Q (apply_locs ts locs n).
Proof.
  intros Ht Hl. unfold apply_locs. apply Forall_rev in Hl. revert ts Ht. induction Hl as [| it r Hit _ IH]; intros ts Ht; cbn [fold_left]; [exact Ht |].
  apply IH. apply splice_ok; assumption.
Qed.

Lemma triple_locs_ok : forall ts i, Forall (fun it : N * token => Q (snd it)) (triple_locs ts i).
Proof.
  induction ts as [| a r IH]; intros i; cbn [triple_locs]; [constructor |]. destruct r as [| b [| c r']]; try constructor.
  destruct (triple_at a b c) as [t |] eqn:E; [constructor; [apply HQ; exact (triple_at_no_ident _ _ _ _ E) |] |]; apply IH.
Qed.

Lemma double_locs_ok : forall fuel ts i, Forall (fun it : N * token => Q (snd it)) (double_locs fuel ts i).
Proof.
  induction fuel as [| f IH]; intros ts i; cbn [double_locs]; [constructor |]. destruct ts as [| a [| b r2]]; try constructor.
  destruct (double_at a b) as [t |] eqn:E; [constructor; [apply HQ; exact (double_at_no_ident _ _ _ E) |] |]; apply IH.
Qed.

Lemma trim_end_ok ts : Forall Q ts -> Forall Q (pp_trim_end ts).
Proof.
  intros H. unfold pp_trim_end.
  assert (H1 : Forall Q (match rev ts with TWs _ :: r => rev r | _ => ts end)).
  { pose proof (Forall_rev H) as Hr. destruct (rev ts) as [| t r]; [exact H |]. destruct t; try exact H. apply Forall_rev. inversion Hr; assumption. }
  set (ts1 := match rev ts with TWs _ :: r => rev r | _ => ts end) in *.
  pose proof (Forall_rev H1) as Hr. destruct (rev ts1) as [| t r]; [exact H1 |]. destruct t; try exact H1.
  apply Forall_rev. constructor; [apply HQ; exact I | inversion Hr; assumption].
Qed.

Lemma separate_ok : forall ts, Forall Q ts -> Forall Q (pp_separate_words ts).
Proof.
  induction ts as [| a r IH]; intros H; cbn [pp_separate_words]; [exact H |]. inversion H as [| ? ? Ha Hr]; subst.
  destruct r as [| b r']; [exact H |]. destruct (is_word_tok a && is_word_tok b); constructor; try assumption; [constructor; [apply HQ; exact I |] |]; apply IH; exact Hr.
Qed.

Theorem post_passes_ok ts : Forall Q ts -> Forall Q (post_passes ts).
Proof.
  intros H. unfold post_passes. apply separate_ok. unfold pp_collapse_doubles. apply apply_locs_ok; [| apply double_locs_ok].
  unfold pp_collapse_triples. apply apply_locs_ok; [| apply triple_locs_ok]. apply trim_end_ok. exact H.
Qed.
End PostPasses.

Theorem scanned_identifiers_have_no_dot : forall src num toks i,
  lex src = Ok (num, toks) -> In (TIdent i) toks -> ~ In 46 (ident_str i).
Proof.
  intros src num toks i H Hin. destruct (split_line_number src) as [n body] eqn:Es. rewrite (lex_split src n body Es) in H.
  destruct (scan (S (List.length body)) body) as [ts | e | |] eqn:El; try discriminate. cbn [bind] in H. injection H as _ <-.
  pose proof (post_passes_ok tok_ok no_ident_ok ts (scan_toks_ok _ _ _ El)) as Hall.
  rewrite Forall_forall in Hall. specialize (Hall _ Hin). cbn in Hall.
  intros Hdot. unfold nodot in Hall. rewrite forallb_forall in Hall. specialize (Hall 46 Hdot). discriminate.
Qed.

Corollary mangled_names_are_private : forall src num toks i fn p,
  lex src = Ok (num, toks) -> In (TIdent i) toks -> ident_str (mangle fn p) <> ident_str i.
Proof.
  intros src num toks i fn p H Hin E. apply (scanned_identifiers_have_no_dot src num toks i H Hin). rewrite <- E.
  unfold mangle. destruct p; cbn [ident_str]; apply in_or_app; right; left; reflexivity.
Qed.

