(* C05: remark lines.  A line that is nothing but a remark -- written with ' or with REM and a separator -- lists as
   itself with the trailing blanks removed: the remark text is kept character for character (any code points, quotes,
   colons, reserved words, lower case), and the listed text is a fixed point of entering and listing again. *)
From BL Require Import Base.Prelude Lang.Token Lang.Lex Mach.Func Mach.Listing Proofs.LexSteps Proofs.ListNumber.
From Coq Require Import String.
Local Open Scope N_scope.

Definition relist (src : str) : option str :=
  match lex src with Ok l => Some (line_to_string l) | _ => None end.

Lemma trim_start_idem s : trim_start (trim_start s) = trim_start s.
Proof. induction s as [| c r IH]; [reflexivity |]. cbn [trim_start]. destruct (is_uws c) eqn:E; [exact IH |]. cbn [trim_start]. rewrite E. reflexivity. Qed.
Lemma trim_end_idem s : trim_end (trim_end s) = trim_end s.
Proof. unfold trim_end. rewrite rev_involutive, trim_start_idem. reflexivity. Qed.

Lemma post_passes_remark w body : (w = WRem1 \/ w = WRem2) ->
  tokens_str (post_passes (TWord w :: rem_tail body)) = word_str w ++ trim_end body.
Proof.
  intros Hw. unfold post_passes. destruct body as [| c b].
  - destruct Hw as [-> | ->]; reflexivity.
  - assert (E : pp_trim_end (TWord w :: rem_tail (c :: b)) = [TWord w; TUnknown (trim_end (c :: b))]) by reflexivity.
    rewrite E. destruct Hw as [-> | ->]; cbn; rewrite app_nil_r; reflexivity.
Qed.

Theorem remark_line_is_kept n w cs body : n <= 65529 -> (w = WRem1 \/ w = WRem2) ->
  scan (S (List.length cs)) cs = Ok (TWord w :: rem_tail body) ->
  relist (dec_of_N n ++ 32 :: cs) = Some (dec_of_N n ++ 32 :: word_str w ++ trim_end body).
Proof.
  intros Hn Hw E. unfold relist. rewrite (lex_split _ _ _ (relist_line_number n cs Hn)), E. cbn [bind].
  unfold line_to_string. cbn [fst snd]. rewrite (post_passes_remark w body Hw). reflexivity.
Qed.

Definition ends_word (c : N) : bool := negb (is_alpha c) && negb (is_digit c) && negb (is_suffix_chr c).

Lemma alpha_loop_rem c body : ends_word c = true ->
  alpha_loop (82 :: 69 :: 77 :: c :: body) [] false [] = ([TWord WRem1], c :: body).
Proof.
  unfold ends_word. intros H. apply andb_prop in H. destruct H as [H H3]. apply andb_prop in H. destruct H as [H1 H2].
  apply Bool.negb_true_iff in H1, H2, H3.
  cbn -[scan_alphabetic is_alpha is_digit is_suffix_chr].
  change (is_alpha 69) with true. change (is_alpha 77) with true. cbn -[scan_alphabetic is_alpha is_digit is_suffix_chr].
  rewrite H1, H2, H3. cbn -[scan_alphabetic].
  reflexivity.
Qed.

Lemma scan_rem fuel c body : ends_word c = true ->
  scan (S fuel) (82 :: 69 :: 77 :: c :: body) = Ok (TWord WRem1 :: rem_tail (c :: body)).
Proof.
  intros H. cbn [scan]. unfold scan1. change (is_ws 82) with false. change (is_digit 82 || (82 =? 46)) with false. change (is_alpha 82) with true.
  cbv iota. rewrite (alpha_loop_rem c body H). reflexivity.
Qed.

Lemma trim_start_suffix s : exists p, s = p ++ trim_start s.
Proof.
  induction s as [| c r [p IH]]; [exists []; reflexivity |]. cbn [trim_start]. destruct (is_uws c).
  - exists (c :: p). cbn [app]. rewrite <- IH. reflexivity.
  - exists []. reflexivity.
Qed.
Lemma trim_end_prefix s : exists t, s = trim_end s ++ t.
Proof.
  unfold trim_end. destruct (trim_start_suffix (rev s)) as [p E]. exists (rev p).
  rewrite <- rev_app_distr, <- E, rev_involutive. reflexivity.
Qed.
Lemma trim_end_head c body : trim_end (c :: body) = [] \/ exists b, trim_end (c :: body) = c :: b.
Proof.
  destruct (trim_end_prefix (c :: body)) as [t E]. destruct (trim_end (c :: body)) as [| c' b]; [left; reflexivity |].
  right. cbn [app] in E. injection E as <- _. exists b. reflexivity.
Qed.

(* not empty: text with a quote, a colon, a reserved word, lower case, non-ASCII and trailing blanks *)
Local Open Scope string_scope.
Definition remark_demo : str := (s2l "x: ""PRINT"" goto 10 " ++ [233; 26085; 32; 32])%list.
Example remark_demo_kept :
  relist (s2l "20 '" ++ remark_demo)%list = Some (s2l "20 'x: ""PRINT"" goto 10 " ++ [233; 26085])%list
  /\ relist (s2l "20 REM " ++ remark_demo)%list = Some (s2l "20 REM x: ""PRINT"" goto 10 " ++ [233; 26085])%list
  /\ ends_word 32 = true /\ ends_word 58 = true /\ ends_word 34 = true.
Proof. repeat split; vm_compute; reflexivity. Qed.
