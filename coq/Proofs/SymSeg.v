(* C09 / C20: symbol hygiene.  The local symbols of a compiled statement are negative and lie above the fragment's symbol
   counter; so appending statement code never disturbs a line-number symbol, and the symbol of line n records the code
   address and the DATA address at which the line starts. *)
From BL Require Import Base.Prelude Mach.Val Lang.Ast Mach.Compile Spec.Sem Proofs.Reloc Proofs.DataSeg Proofs.ExprCompile Proofs.Flow
     Proofs.Flow4.
Local Open Scope N_scope.

Definition same_syms (l l' : link) : Prop := l_cur l' = l_cur l /\ l_syms l' = l_syms l.
Definition quiet {A} (m : LM A) : Prop := forall l l' x, m l = (l', x) -> same_syms l l'.

Lemma same_syms_refl l : same_syms l l. Proof. split; reflexivity. Qed.
Lemma same_syms_trans a b c : same_syms a b -> same_syms b c -> same_syms a c.
Proof. intros [H1 H2] [H3 H4]. split; congruence. Qed.

Lemma quiet_const {A} (x0 : res A) : quiet (fun l => (l, x0)).
Proof. exact (pres_const same_syms same_syms_refl x0). Qed.
Lemma quiet_bind {A B} (m : LM A) (f : A -> LM B) : quiet m -> (forall a, quiet (f a)) -> quiet (lbind m f).
Proof. exact (pres_bind same_syms same_syms_trans m f). Qed.

Lemma quiet_push op : quiet (l_push op).
Proof. intros l l' x H. unfold l_push in H. injection H as <- _. split; reflexivity. Qed.
Lemma quiet_unlink_here c s : quiet (l_unlink_here c s).
Proof. intros l l' x H. injection H as <- _. split; reflexivity. Qed.
Lemma quiet_add_while k c s : quiet (l_add_while k c s).
Proof. intros l l' x H. injection H as <- _. split; reflexivity. Qed.

Definition nosyms (l : link) : Prop := l_cur l = 0%Z /\ l_syms l = [].

Lemma quiet_append f : nosyms f -> quiet (l_append f).
Proof.
  intros [Hc Hs] l l' x H. destruct (l_append_cases f l l' x H) as [[-> _] | [[-> _] | [-> _]]]; [apply same_syms_refl | |];
    unfold same_syms, merged; cbn [set_data l_cur l_syms]; rewrite Hc, Hs, Z.add_0_r; split; reflexivity.
Qed.

Lemma quiet_rel : frag_rel same_syms nosyms.
Proof.
  split; [exact same_syms_refl | exact same_syms_trans | intros l H; exact H | exact quiet_push | exact quiet_append].
Qed.

#[export] Hint Resolve quiet_push quiet_unlink_here quiet_add_while quiet_append : pres.
Ltac qt := walk quiet_const quiet_bind fail.

Lemma quiet_lit_len n : quiet (lit_len n). Proof. exact (pres_lit_len quiet_rel n). Qed.
Lemma quiet_test v s : quiet (test_for_built_in v s). Proof. exact (pres_test quiet_rel v s). Qed.
Lemma quiet_push_as_expression v : nosyms (vi_link v) -> quiet (push_as_expression v).
Proof. exact (pres_push_as_expression quiet_rel v). Qed.
Lemma quiet_push_as_pop v : nosyms (vi_link v) -> quiet (push_as_pop v).
Proof. exact (pres_push_as_pop quiet_rel v). Qed.
Lemma quiet_push_as_pop_unary v : quiet (push_as_pop_unary v).
Proof. exact (pres_push_as_pop_unary quiet_rel v). Qed.
Lemma quiet_push_as_dim v : nosyms (vi_link v) -> quiet (push_as_dim v).
Proof. exact (pres_push_as_dim quiet_rel v). Qed.
Lemma quiet_append_all fs : Forall (fun f : frag => nosyms (snd f)) fs -> quiet (append_all fs).
Proof. exact (pres_append_all quiet_rel fs). Qed.
#[export] Hint Resolve quiet_lit_len quiet_test quiet_push_as_expression quiet_push_as_pop quiet_push_as_pop_unary
  quiet_push_as_dim quiet_append_all : pres.

Lemma quiet_push_jump c s : quiet (l_push_jump c s). Proof. unfold l_push_jump. qt. Qed.
Lemma quiet_push_ifnot c s : quiet (l_push_ifnot c s). Proof. unfold l_push_ifnot. qt. Qed.
Lemma quiet_push_return_val c s : quiet (l_push_return_val c s). Proof. unfold l_push_return_val. qt. Qed.
Lemma quiet_sym_of_line n : quiet (sym_of_line n). Proof. exact (pres_sym_of_line quiet_rel n). Qed.
#[export] Hint Resolve quiet_push_jump quiet_push_ifnot quiet_push_return_val quiet_sym_of_line : pres.
Lemma quiet_push_goto c n : quiet (l_push_goto c n). Proof. unfold l_push_goto. qt. Qed.
Lemma quiet_push_restore c n : quiet (l_push_restore c n). Proof. unfold l_push_restore. qt. Qed.
Lemma quiet_push_run c n : quiet (l_push_run c n). Proof. unfold l_push_run. qt. Qed.
Lemma quiet_pop_line_number f : quiet (pop_line_number f). Proof. exact (pres_pop_line_number quiet_rel f). Qed.
Lemma quiet_val_of_line n : quiet (val_of_line n). Proof. exact (pres_val_of_line quiet_rel n). Qed.
#[export] Hint Resolve quiet_push_goto quiet_push_restore quiet_push_run quiet_pop_line_number quiet_val_of_line : pres.
Lemma quiet_on_targets c : forall ts se, quiet (cg_on_targets c ts se).
Proof. induction ts as [| t r IH]; intros se; cbn [cg_on_targets]; [qt | destruct (link_line_number (snd t)); qt; apply IH]. Qed.
Lemma quiet_cg_range c a b op : quiet (cg_range c a b op). Proof. exact (pres_cg_range quiet_rel c a b op). Qed.
Lemma quiet_cg_deftype c a b op : quiet (cg_deftype c a b op). Proof. exact (pres_cg_deftype quiet_rel c a b op). Qed.
Lemma quiet_simple c op : quiet (simple c op). Proof. exact (pres_simple quiet_rel c op). Qed.
#[export] Hint Resolve quiet_on_targets quiet_cg_range quiet_cg_deftype quiet_simple : pres.

Definition Inv (l : link) : Prop := (l_cur l <= 0)%Z /\ forall k v, In (k, v) (l_syms l) -> (l_cur l <= k < 0)%Z.

Definition hs {A} (S : list Z) (m : LM A) : Prop :=
  forall l l' a, m l = (l', Ok a) -> Inv l -> (forall s, In s S -> (l_cur l <= s < 0)%Z) -> Inv l' /\ (l_cur l' <= l_cur l)%Z.

(* hs stated of every outcome is pres of this relation; it is a preorder because the counter only falls, so symbols in
   scope stay in scope *)
Definition scoped (S : list Z) (l l' : link) : Prop :=
  Inv l -> (forall s, In s S -> (l_cur l <= s < 0)%Z) -> Inv l' /\ (l_cur l' <= l_cur l)%Z.

Lemma scoped_hs {A} S (m : LM A) : pres (scoped S) m -> hs S m.
Proof. intros H l l' a E. exact (H l l' _ E). Qed.

Lemma scoped_refl S l : scoped S l l.
Proof. intros HI _. split; [exact HI | lia]. Qed.
Lemma scoped_trans S a b c : scoped S a b -> scoped S b c -> scoped S a c.
Proof.
  intros H1 H2 HI HS. destruct (H1 HI HS) as [HI1 Hc1].
  destruct (H2 HI1) as [HI2 Hc2]; [intros s Hs; specialize (HS s Hs); lia |]. split; [exact HI2 | lia].
Qed.

Lemma scoped_bind {A B} S (m : LM A) (f : A -> LM B) :
  pres (scoped S) m -> (forall a, pres (scoped S) (f a)) -> pres (scoped S) (lbind m f).
Proof. exact (pres_bind (scoped S) (scoped_trans S) m f). Qed.

Lemma nosyms_inv l : nosyms l -> Inv l.
Proof. intros [H1 H2]. split; [lia |]. rewrite H2. intros k v []. Qed.

Lemma scoped_quiet {A} S (m : LM A) : quiet m -> pres (scoped S) m.
Proof. intros H l l' x E [Hc Hk] _. destruct (H l l' _ E) as [H1 H2]. split; [split |]; rewrite ?H1, ?H2; try assumption. lia. Qed.

Lemma scoped_scope {B} S (body : Z -> LM B) :
  (forall s, pres (scoped (s :: S)) (body s)) -> pres (scoped S) (lbind l_next_symbol body).
Proof.
  intros Hb l l' x H [Hc Hk] HS. unfold lbind, l_next_symbol in H.
  match type of H with body ?c ?l1 = _ => destruct (Hb c l1 l' x H) as [HI2 Hc2] end.
  - split; cbn [l_cur l_syms]; [lia |]. intros k v Hin. specialize (Hk k v Hin). lia.
  - cbn [l_cur]. intros s [<- | Hs]; [lia | specialize (HS s Hs); lia].
  - cbn [l_cur] in Hc2. split; [exact HI2 | lia].
Qed.

Lemma scoped_push_symbol S s : In s S -> pres (scoped S) (l_push_symbol s).
Proof.
  intros Hin l l' x H [Hc Hk] HS. unfold l_push_symbol in H. injection H as <- _. unfold Inv. cbn [l_cur l_syms]. split; [split; [exact Hc |] | lia].
  intros k v Hkv. apply zassoc_set_in in Hkv. destruct Hkv as [[-> _] | Hkv]; [exact (HS s Hin) | exact (Hk k v Hkv)].
Qed.

(* also when the pools overflow: the symbols are merged before the lengths are checked *)
Lemma scoped_append S f : Inv f -> pres (scoped S) (l_append f).
Proof.
  intros [Hcf Hkf] l l' x H [Hc Hk] _.
  assert (G : Inv (merged f l) /\ (l_cur (merged f l) <= l_cur l)%Z).
  { split; [split; [unfold merged; cbn [l_cur]; lia |] | unfold merged; cbn [l_cur]; lia]. intros k v Hin.
    apply merged_syms_in in Hin. destruct Hin as [Hin | [[k0 v0] [He ->]]]; [specialize (Hk k v Hin); unfold merged; cbn [l_cur]; lia |].
    specialize (Hkf k0 v0 He). unfold rebase, merged. cbn [fst l_cur]. destruct (Z.ltb_spec k0 0); lia. }
  destruct (l_append_cases f l l' x H) as [[-> _] | [[-> _] | [-> _]]]; [split; [split; assumption | lia] | exact G | exact G].
Qed.

Lemma scoped_rel : frag_rel (scoped []) Inv.
Proof.
  split; [exact (scoped_refl []) | exact (scoped_trans []) | | intros op; exact (scoped_quiet [] _ (quiet_push op)) | exact (scoped_append [])].
  intros l H. apply H; [apply nosyms_inv; split; reflexivity | intros s []].
Qed.

Lemma scoped_append_all S fs : Forall (fun f : frag => Inv (snd f)) fs -> pres (scoped S) (append_all fs).
Proof.
  intros H. unfold append_all. apply pres_fold; [| apply pres_const, scoped_refl].
  intros m f Hin Hm. rewrite Forall_forall in H. apply scoped_bind; [exact Hm | intros _; apply scoped_append; exact (H f Hin)].
Qed.

Ltac sy := walk (fun S => @pres_const (scoped S) (scoped_refl S)) scoped_bind
  ltac:(first [ apply scoped_quiet; solve [auto with pres]
              | apply scoped_push_symbol; cbn [In]; solve [auto 8]
              | apply scoped_append; solve [assumption | apply nosyms_inv; assumption]
              | apply scoped_scope; intros ? ]).
Ltac sy_fold H := walk_fold pres_fold ltac:(sy) H.

Lemma scoped_push_gosub S c n : pres (scoped S) (l_push_gosub c n). Proof. unfold l_push_gosub. sy. Qed.
Lemma scoped_push_for S c : pres (scoped S) (l_push_for c). Proof. unfold l_push_for. sy. Qed.
Lemma scoped_push_wend S c : pres (scoped S) (l_push_wend c). Proof. unfold l_push_wend. sy. Qed.
Lemma scoped_push_while S c e : nosyms e -> pres (scoped S) (l_push_while c e). Proof. intros H. unfold l_push_while. sy. Qed.
Lemma scoped_push_def_fn S c name vars body : nosyms body -> pres (scoped S) (l_push_def_fn c name vars body).
Proof.
  intros H. unfold l_push_def_fn. sy. apply pres_fold; [| sy]. intros m x _ Hm. sy.
Qed.
#[export] Hint Resolve scoped_push_gosub scoped_push_for scoped_push_wend scoped_push_while scoped_push_def_fn scoped_append_all : pres.

Lemma hs_push_gosub S c n : hs S (l_push_gosub c n). Proof. exact (scoped_hs S _ (scoped_push_gosub S c n)). Qed.
Lemma hs_push_for S c : hs S (l_push_for c). Proof. exact (scoped_hs S _ (scoped_push_for S c)). Qed.
Lemma hs_push_wend S c : hs S (l_push_wend c). Proof. exact (scoped_hs S _ (scoped_push_wend S c)). Qed.
Lemma hs_push_while S c e : nosyms e -> hs S (l_push_while c e). Proof. intros H. exact (scoped_hs S _ (scoped_push_while S c e H)). Qed.
Lemma hs_push_def_fn S c name vars body : nosyms body -> hs S (l_push_def_fn c name vars body).
Proof. intros H. exact (scoped_hs S _ (scoped_push_def_fn S c name vars body H)). Qed.

(* every statement's fragment is hygienic, whether or not errors were reported for it *)
Theorem cg_stmt_inv : forall s, Inv (snd (fst (cg_stmt s))).
Proof.
  induction s as [c p th el IHth IHel | s Hs] using stmt_ind2.
  -
    cbn [cg_stmt]. pose proof (cg_expr_pres quiet_rel p) as Hp. destruct (cg_expr p) as [pf x0]. cbn [fst snd] in Hp.
    assert (Hth : Forall (fun f : frag => Inv (snd f)) (map fst (map cg_stmt th))) by (rewrite map_map; apply Forall_map; exact IHth).
    assert (Hel : Forall (fun f : frag => Inv (snd f)) (map fst (map cg_stmt el))) by (rewrite map_map; apply Forall_map; exact IHel).
    apply (fin_pres scoped_rel). apply scoped_bind; [sy |]. intros _. apply scoped_scope. intros es.
    apply scoped_bind; [sy |]. intros _.
    apply scoped_bind; [apply scoped_append_all; exact Hth |]. intros _.
    destruct (map cg_stmt el) as [| g0 gs] eqn:Eg; [sy |].
    apply scoped_scope. intros fs. sy.
  - destruct s; try contradiction; stmt_walk quiet_rel (cg_expr_pres quiet_rel) (cg_var_pres quiet_rel) (fin_pres scoped_rel) ltac:(sy) sy_fold.
    (* DATA *)
    apply scoped_bind; [| intros _; sy]. apply pres_fold; [| sy]. intros m f Hin Hm. rewrite Forall_forall in Hl. specialize (Hl f Hin).
    apply scoped_bind; [exact Hm |]. intros _. cbv beta in Hl. rewrite <- (transform_reads nosyms (fst f)) in Hl by reflexivity.
    destruct (l_transform_to_data (fst f) (snd f)) as [f' [u | e | |]]; cbn [fst] in Hl; sy.
Qed.

Definition PInv (L : link) : Prop := (l_cur L <= 0)%Z /\ forall k v, In (k, v) (l_syms L) -> (k < 0)%Z -> (l_cur L <= k)%Z.

Lemma append_keeps_lines f L L' : Inv f -> PInv L -> l_append f L = (L', Ok tt) ->
  PInv L' /\ forall k, (0 <= k)%Z -> zassoc_get k (l_syms L') = zassoc_get k (l_syms L).
Proof.
  intros [Hcf Hkf] [Hc Hk] H. destruct (l_append_cases f L L' _ H) as [[_ E] | [[_ E] | [-> _]]]; [discriminate E | discriminate E |].
  unfold PInv. change (l_syms (set_data (merged f L) _)) with (l_syms (merged f L)). cbn [set_data merged l_cur]. split; [split; [lia |] |].
  - intros k v Hin Hneg. apply merged_syms_in in Hin.
    destruct Hin as [Hin | [[k0 v0] [He ->]]]; [specialize (Hk k v Hin Hneg); lia |].
    specialize (Hkf k0 v0 He). unfold rebase in *. cbn [fst] in *. destruct (Z.ltb_spec k0 0); lia.
  - intros k Hk0. apply merged_syms_get.
    intros [k0 v0] He. specialize (Hkf k0 v0 He). unfold rebase. cbn [fst]. destruct (Z.ltb_spec k0 0); lia.
Qed.

Lemma append_frags_lines : forall fs p, Forall (fun f : frag => Inv (snd f)) fs -> pg_errors (append_stmt_frags p fs) = [] -> PInv (pg_link p) ->
  PInv (pg_link (append_stmt_frags p fs)) /\ forall k, (0 <= k)%Z -> zassoc_get k (l_syms (pg_link (append_stmt_frags p fs))) = zassoc_get k (l_syms (pg_link p)).
Proof.
  induction fs as [| f r IH]; intros p Hf H HP; [split; [exact HP | reflexivity] |].
  inversion Hf as [| ? ? Hf1 Hfr]; subst.
  destruct (append_frags_cons f r p H) as (l' & E & Er). rewrite Er in *.
  destruct (append_keeps_lines _ _ _ Hf1 HP E) as [HP' Hsame].
  destruct (IH (with_link p l') Hfr H HP') as [HP2 Hsame2]. split; [exact HP2 |]. intros k Hk. rewrite (Hsame2 k Hk). exact (Hsame k Hk).
Qed.

Lemma frags_inv ss : Forall (fun f : frag => Inv (snd f)) (frags_of ss).
Proof. unfold frags_of. rewrite map_map, Forall_map. apply Forall_forall. intros s _. apply cg_stmt_inv. Qed.

Lemma codegen_line_symbol : forall p n ss, pg_errors (codegen_line p (Some n) (Ok ss)) = [] -> PInv (pg_link p) ->
  PInv (pg_link (codegen_line p (Some n) (Ok ss)))
  /\ zassoc_get (Z.of_N n) (l_syms (pg_link (codegen_line p (Some n) (Ok ss)))) = Some (lenN (l_ops (pg_link p)), lenN (l_data (pg_link p)))
  /\ forall k, (0 <= k)%Z -> k <> Z.of_N n ->
       zassoc_get k (l_syms (pg_link (codegen_line p (Some n) (Ok ss)))) = zassoc_get k (l_syms (pg_link p)).
Proof.
  intros p n ss H HP. destruct (line_ok p n ss H) as (_ & _ & E). rewrite E in *.
  assert (HQ : PInv (pg_link (sym_pushed p n))).
  { destruct HP as [Hc Hk]. split; [exact Hc |]. unfold sym_pushed. cbn [pg_link l_cur l_syms].
    intros k v Hin Hneg. apply zassoc_set_in in Hin. destruct Hin as [[-> _] | Hin]; [lia | exact (Hk k v Hin Hneg)]. }
  destruct (append_frags_lines _ _ (frags_inv ss) H HQ) as [HP' Hsame]. split; [exact HP' |]. split.
  - rewrite (Hsame (Z.of_N n) ltac:(lia)). apply zassoc_get_set_same.
  - intros k Hk Hne. rewrite (Hsame k Hk). apply zassoc_get_set_other. exact Hne.
Qed.

Lemma compile_from_app p a b : compile_from p (a ++ b) = compile_from (compile_from p a) b.
Proof. unfold compile_from. apply fold_left_app. Qed.

Lemma compile_from_cons p n ss r : compile_from p ((n, ss) :: r) = compile_from (codegen_line p (Some n) (Ok ss)) r.
Proof. reflexivity. Qed.

Lemma compile_from_lines : forall lines p, pg_errors (compile_from p lines) = [] -> PInv (pg_link p) ->
  PInv (pg_link (compile_from p lines))
  /\ forall n, ~ In n (map fst lines) ->
       zassoc_get (Z.of_N n) (l_syms (pg_link (compile_from p lines))) = zassoc_get (Z.of_N n) (l_syms (pg_link p)).
Proof.
  induction lines as [| [m ss] r IH]; intros p H HP; [split; [exact HP | reflexivity] |]. rewrite compile_from_cons in *.
  destruct (compile_from_data r _ H) as (H1 & _ & _). destruct (codegen_line_symbol p m ss H1 HP) as (HP1 & _ & Hoth).
  destruct (IH _ H HP1) as [HP2 Hr]. split; [exact HP2 |]. intros n Hn.
  rewrite (Hr n) by (intros Hin; apply Hn; right; exact Hin).
  apply Hoth; [lia |]. intros E. apply Hn. left. symmetry. exact (N2Z.inj _ _ E).
Qed.

Lemma compile_from_mid before n ss after p0 :
  pg_errors (compile_from p0 (before ++ (n, ss) :: after)) = [] -> PInv (pg_link p0) ->
  pg_errors (compile_from p0 before) = [] /\ PInv (pg_link (compile_from p0 before))
  /\ pg_errors (codegen_line (compile_from p0 before) (Some n) (Ok ss)) = []
  /\ compile_from p0 (before ++ (n, ss) :: after) = compile_from (codegen_line (compile_from p0 before) (Some n) (Ok ss)) after.
Proof.
  intros H HP. rewrite compile_from_app, compile_from_cons in *.
  destruct (compile_from_data after _ H) as (H1 & _ & _). destruct (codegen_line_data _ n ss H1) as (H0 & _ & _).
  split; [exact H0 |]. split; [exact (proj1 (compile_from_lines before p0 H0 HP)) |]. split; [exact H1 | reflexivity].
Qed.

(* in the compiled program (any statements, any layout, no compile error), the symbol of line n
   holds the code address at which line n starts and, as its data address, the number of DATA constants in the lines before
   it -- provided the number n is not used again further down *)
Theorem line_symbol_addresses : forall before n ss after p0,
  pg_errors (compile_from p0 (before ++ (n, ss) :: after)) = [] -> PInv (pg_link p0) -> ~ In n (map fst after) ->
  zassoc_get (Z.of_N n) (l_syms (pg_link (compile_from p0 (before ++ (n, ss) :: after))))
  = Some (lenN (l_ops (pg_link (compile_from p0 before))),
          lenN (l_data (pg_link p0) ++ flat_map (fun e => line_vals (snd e)) before)).
Proof.
  intros before n ss after p0 H HP Hnot. destruct (compile_from_mid before n ss after p0 H HP) as (H0 & HP1 & H1 & E). rewrite E in *.
  destruct (codegen_line_symbol _ n ss H1 HP1) as (HP2 & Hget & _).
  rewrite (proj2 (compile_from_lines after _ H HP2) n Hnot), Hget.
  destruct (compile_from_data before p0 H0) as (_ & _ & ->). reflexivity.
Qed.

(* for a program compiled from scratch, in the reference semantics' terms (Props/C09.v): the count of compiled constants
   before a line is the count Sem.data_index_of_line makes *)
Lemma pinv_start dp : PInv (pg_link (mkProg [] [] 0 None (plink 0 [] [] [] dp))).
Proof. split; cbn; [lia | intros k v []]. Qed.

Lemma compile_asts_from prog dp : compile_asts prog dp = compile_from (mkProg [] [] 0 None (plink 0 [] [] [] dp)) prog.
Proof. reflexivity. Qed.

Lemma line_vals_count ss : Forall (fun s => snd (cg_stmt s) = []) ss -> forallb wf_data ss = true ->
  lenN (line_vals ss) = lenN (line_data ss).
Proof.
  intros He Hw. rewrite <- (line_vals_data ss He Hw). unfold lenN. rewrite map_length. reflexivity.
Qed.

Lemma before_count : forall (before : list (N * list stmt)) n, (forall e, In e before -> fst e < n) ->
  forallb (fun e => forallb wf_data (snd e)) before = true ->
  Forall (fun e => Forall (fun s => snd (cg_stmt s) = []) (snd e)) before ->
  lenN (flat_map (fun e => line_vals (snd e)) before)
  = lenN (flat_map (fun e : N * list stmt => if fst e <? n then line_data (snd e) else []) before).
Proof.
  induction before as [| e r IH]; intros n Hb Hw Hs; [reflexivity |]. cbn [flat_map]. rewrite !lenN_app.
  cbn [forallb] in Hw. apply andb_prop in Hw. destruct Hw as [We Wr]. inversion Hs as [| ? ? Se Sr]; subst.
  destruct (N.ltb_spec (fst e) n) as [_ | Hge]; [| specialize (Hb e (or_introl eq_refl)); lia].
  rewrite (line_vals_count (snd e) Se We). rewrite (IH n); [reflexivity | intros e' He'; apply Hb; right; exact He' | exact Wr | exact Sr].
Qed.

From Coq Require Import String.
Definition data_demo_text : list string :=
  ["10 READ A,B$"; "20 DATA 1,-2.5"; "30 IF A THEN DATA ""X"",7 ELSE DATA 9"; "40 RESTORE 30:READ C$"; "50 DATA -3"]%string.
Definition data_demo : list (N * list stmt) :=
  flat_map (fun s => match parse_src s with Some l => [l] | None => [] end) data_demo_text.

(* five lines parse; they compile without error; every DATA item is a constant; the segment is the six constants in
   source order (THEN part before ELSE part); line 30's symbol carries data address 2 = Sem.data_index_of_line 30 *)
Example data_demo_facts :
  lenN data_demo = 5 /\ pg_errors (compile_asts data_demo 0) = []
  /\ forallb (fun e => forallb wf_data (snd e)) data_demo = true
  /\ l_data (pg_link (program_link (compile_asts data_demo 0))) = [VInt 1; VSng 3223322624; VStr [88]; VInt 7; VInt 9; VInt (-3)]
  /\ zassoc_get 30%Z (l_syms (pg_link (compile_asts data_demo 0))) = Some (4, 2) /\ data_index_of_line data_demo 30 = 2.
Proof. vm_compute. repeat split; reflexivity. Qed.
