(* C02: the result type of + - * (promotion Integer < Single < Double). *)
From BL Require Import Base.Prelude Mach.Val Mach.Ops.
Local Open Scope Z_scope.

Definition rank (t : vtype) : nat := match t with TInt => 0 | TSng => 1 | TDbl => 2 | TStr => 3 end.
Definition numeric (v : val) : bool := match v with VInt _ | VSng _ | VDbl _ => true | _ => false end.
Definition wider (a b : vtype) : vtype := if Nat.leb (rank a) (rank b) then b else a.

Lemma arith_type fi f32 f64 l r v tl tr : arith fi f32 f64 l r = Ok v ->
  val_type l = Some tl -> val_type r = Some tr -> numeric l = true -> numeric r = true ->
  val_type v = Some (wider tl tr).
Proof.
  unfold arith. destruct l, r; cbn; intros H Hl Hr Nl Nr; try discriminate;
    injection Hl as <-; injection Hr as <-; try (injection H as <-; reflexivity).
  unfold chk in H. destruct (in_i16 _); [injection H as <-; reflexivity | discriminate].
Qed.

