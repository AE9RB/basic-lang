(* C20 -- a line that generates no code (a remark, an empty statement) is invisible in the compiled program: inserting it
   changes neither the instructions nor the DATA, only the symbol table gains its number; and when nothing refers to it and
   code follows it, the linked program has the same instructions too.  Section Split: the same for a line split in two. *)
From BL Require Import Base.Prelude Lang.Lex Lang.Ast Lang.Parse Mach.Compile Proofs.DataSeg Proofs.SymSeg
     Proofs.Reloc.
Local Open Scope N_scope.

Lemma append_cur f l : (l_cur f <= 0)%Z -> (l_cur l <= 0)%Z -> (l_cur (fst (l_append f l)) <= 0)%Z.
Proof.
  intros Hf Hl. destruct (l_append f l) as [l' x] eqn:E. cbn [fst].
  destruct (l_append_cases f l l' x E) as [[-> _] | [[-> _] | [-> _]]]; [exact Hl | |]; unfold merged; cbn [set_data l_cur]; lia.
Qed.

Section EmptyLine.
Variable n : N.            (* the number of the new line *)
Notation key := (Z.of_N n).

Definition Ins (s s' : list (Z * (N * N))) : Prop := exists a b v, s = a ++ b /\ s' = a ++ (key, v) :: b.

(* the new entry is passed over, or not reached at all *)
Lemma ins_set : forall s s' k v, Ins s s' -> k <> key -> Ins (zassoc_set k v s) (zassoc_set k v s').
Proof.
  intros s s' k v [a [b [w [-> ->]]]] Hne. induction a as [| [k0 v0] r IH]; cbn [app zassoc_set].
  - destruct (Z.eqb_spec k key); [contradiction |]. exists [], (zassoc_set k v b), w. split; reflexivity.
  - destruct (k =? k0)%Z; [exists ((k, v) :: r), b, w; split; reflexivity |].
    destruct IH as [a' [b' [w' [E E']]]]. exists ((k0, v0) :: a'), b', w'. rewrite E, E'. split; reflexivity.
Qed.

Lemma ins_fold (g : Z * (N * N) -> Z) (h : Z * (N * N) -> N * N) : forall fs s s', Ins s s' -> (forall e, In e fs -> g e <> key) ->
  Ins (fold_left (fun acc e => zassoc_set (g e) (h e) acc) fs s) (fold_left (fun acc e => zassoc_set (g e) (h e) acc) fs s').
Proof.
  induction fs as [| e r IH]; intros s s' H Hk; cbn [fold_left]; [exact H |].
  apply IH; [apply ins_set; [exact H | apply Hk; left; reflexivity] | intros e' He'; apply Hk; right; exact He'].
Qed.

Lemma ins_get : forall s s' k, Ins s s' -> k <> key -> zassoc_get k s' = zassoc_get k s.
Proof.
  intros s s' k [a [b [w [-> ->]]]] Hne. induction a as [| [k0 v0] r IH]; cbn [app zassoc_get].
  - destruct (Z.eqb_spec k key); [contradiction | reflexivity].
  - destruct (k =? k0)%Z; [reflexivity | exact IH].
Qed.

Lemma ins_get_new {V} a b (w : V) : zassoc_get key (a ++ b) = None -> zassoc_get key (a ++ (key, w) :: b) = Some w.
Proof.
  induction a as [| [k0 v0] r IH]; cbn [app zassoc_get]; [rewrite Z.eqb_refl; reflexivity |].
  destruct (key =? k0)%Z; [discriminate | exact IH].
Qed.

Lemma ins_only s s' v : Ins s s' -> zassoc_get key s = None -> In (key, v) s' -> zassoc_get key s' = Some v.
Proof.
  intros [a [b [w [-> ->]]]] Hnone Hin. rewrite (ins_get_new a b w Hnone). f_equal.
  apply in_app_or in Hin. destruct Hin as [Hin | [E | Hin]]; [| injection E as <-; reflexivity |].
  all: exfalso; apply (get_none_no_entry key _ v Hnone), in_or_app; auto.
Qed.

Lemma ins_existsb (f : Z * (N * N) -> bool) : forall s s', Ins s s' -> exists v, existsb f s' = existsb f s || f (key, v).
Proof.
  intros s s' [a [b [w [-> ->]]]]. exists w. rewrite !existsb_app. cbn [existsb].
  destruct (existsb f a), (f (key, w)), (existsb f b); reflexivity.
Qed.

Definition LS (L L' : link) : Prop :=
  l_cur L' = l_cur L /\ l_ops L' = l_ops L /\ l_data L' = l_data L /\ l_data_pos L' = l_data_pos L /\ l_direct_set L' = l_direct_set L
  /\ l_unlinked L' = l_unlinked L /\ l_whiles L' = l_whiles L /\ Ins (l_syms L) (l_syms L').
(* the "current line" register, which every numbered line sets first, is left out *)
Definition PS0 (p p' : program) : Prop :=
  pg_errors p' = pg_errors p /\ pg_ind_errors p' = pg_ind_errors p /\ pg_direct p' = pg_direct p /\ LS (pg_link p) (pg_link p').

Lemma ls_merged f L L' : LS L L' -> (forall e, In e (l_syms f) -> (fst e < 0)%Z) -> (l_cur L <= 0)%Z -> LS (merged f L) (merged f L').
Proof.
  intros (Hc & Ho & Hd & Hp & Hs & Hu & Hw & Hi) Hneg Hcur. unfold LS, merged. cbn [l_cur l_ops l_data l_data_pos l_direct_set l_syms l_unlinked l_whiles].
  rewrite Hc, Ho, Hd, Hp, Hs, Hu, Hw. repeat split.
  apply (ins_fold (fun e => rebase (l_cur L) (fst e))); [exact Hi |].
  intros e He. specialize (Hneg e He). unfold rebase. destruct (Z.ltb_spec (fst e) 0); lia.
Qed.

(* the two runs take the same branch of l_append: the conditions read instructions and data only *)
Lemma ls_append f : forall L L', LS L L' -> (forall e, In e (l_syms f) -> (fst e < 0)%Z) -> (l_cur L <= 0)%Z ->
  LS (fst (l_append f L)) (fst (l_append f L')) /\ snd (l_append f L') = snd (l_append f L).
Proof.
  intros L L' HL Hneg Hcur. pose proof (ls_merged f L L' HL Hneg Hcur) as HM. rewrite !l_append_eq.
  destruct HL as (Hc & Ho & Hd & Hp & Hs & Hu & Hw & Hi). rewrite Hs, Ho, Hd.
  destruct (l_direct_set L && _); [split; [repeat split; assumption | reflexivity] |].
  destruct (MAX_POOL <? lenN (l_ops L ++ l_ops f)); [split; [exact HM | reflexivity] |].
  split; [| reflexivity]. destruct HM as (Mc & Mo & _ & Mp & Ms & Mu & Mw & Mi). repeat split; assumption || reflexivity.
Qed.

(* appending the fragments of a line on both sides, when no error comes of it on one of them (an error message would
   name the current line, which PS0 does not relate) *)
Lemma ps0_append_frags : forall fs p p', PS0 p p' -> Forall (fun f : frag => Inv (snd f)) fs -> (l_cur (pg_link p) <= 0)%Z ->
  pg_errors (append_stmt_frags p fs) = [] \/ pg_errors (append_stmt_frags p' fs) = [] ->
  PS0 (append_stmt_frags p fs) (append_stmt_frags p' fs).
Proof.
  induction fs as [| f r IH]; intros p p' HP HF Hc He; cbn [append_stmt_frags] in *; [exact HP |].
  inversion HF as [| ? ? [Hcf Hkf] Hr]; subst.
  destruct HP as (H1 & H2 & H3 & HL).
  destruct (ls_append (snd f) (pg_link p) (pg_link p') HL) as [HL1 Hres]; [intros e He0; destruct e as [k v]; exact (proj2 (Hkf k v He0)) | exact Hc |].
  pose proof (append_cur (snd f) (pg_link p) Hcf Hc) as Hcur.
  destruct (l_append (snd f) (pg_link p)) as [l1 x1]. destruct (l_append (snd f) (pg_link p')) as [l1' x1']. cbn [fst snd] in *. subst x1'.
  assert (HPw : PS0 (with_link p l1) (with_link p' l1')) by (split; [exact H1 | split; [exact H2 | split; [exact H3 | exact HL1]]]).
  destruct x1 as [u | e | |]; [apply IH; assumption | | exact HPw | exact HPw].
  exfalso. destruct He as [He | He]; exact (prog_error_errors _ _ He).
Qed.

Lemma append_frags_cur : forall fs p, Forall (fun f : frag => Inv (snd f)) fs -> (l_cur (pg_link p) <= 0)%Z ->
  (l_cur (pg_link (append_stmt_frags p fs)) <= 0)%Z.
Proof.
  induction fs as [| f r IH]; intros p HF Hc; cbn [append_stmt_frags]; [exact Hc |].
  inversion HF as [| ? ? [Hcf Hkf] Hr]; subst.
  pose proof (append_cur (snd f) (pg_link p) Hcf Hc) as Hcur.
  destruct (l_append (snd f) (pg_link p)) as [l1 [u | e | |]]; cbn [fst] in Hcur; [apply IH; assumption | | |]; exact Hcur.
Qed.

Lemma ps0_sym_pushed p p' m : PS0 p p' -> m <> n -> PS0 (sym_pushed p m) (sym_pushed p' m).
Proof.
  intros (H1 & H2 & H3 & (Lc & Lo & Ld & Lp & Ls & Lu & Lw & Li)) Hm. unfold PS0, LS, sym_pushed. cbn.
  rewrite Lo, Ld. repeat split; try assumption.
  apply ins_set; [exact Li |]. intros E. apply Hm. apply N2Z.inj. exact E.
Qed.

Lemma ps0_codegen_line : forall p p' m ss, PS0 p p' -> m <> n -> (l_cur (pg_link p) <= 0)%Z ->
  pg_errors (codegen_line p (Some m) (Ok ss)) = [] \/ pg_errors (codegen_line p' (Some m) (Ok ss)) = [] ->
  PS0 (codegen_line p (Some m) (Ok ss)) (codegen_line p' (Some m) (Ok ss))
  /\ (l_cur (pg_link (codegen_line p (Some m) (Ok ss))) <= 0)%Z.
Proof.
  intros p p' m ss HP Hm Hc He.
  assert (Hss : flat_map snd (map cg_stmt ss) = []).
  { destruct He as [He | He]; [destruct (line_ok p m ss He) as (_ & Hss & _) | destruct (line_ok p' m ss He) as (_ & Hss & _)];
      exact (proj2 (cg_errors_nil ss) Hss). }
  rewrite !(codegen_line_form _ m ss Hss) in *. split.
  - apply ps0_append_frags; [apply ps0_sym_pushed; assumption | apply frags_inv | exact Hc | exact He].
  - apply append_frags_cur; [apply frags_inv | exact Hc].
Qed.

Lemma ps0_new_line : forall p, zassoc_get key (l_syms (pg_link p)) = None -> PS0 p (sym_pushed p n).
Proof.
  intros p Hf. unfold PS0, LS, sym_pushed. cbn. repeat split; try reflexivity.
  rewrite (get_none_fresh key _ Hf). exists (l_syms (pg_link p)), [], (lenN (l_ops (pg_link p)), lenN (l_data (pg_link p))).
  split; [rewrite app_nil_r; reflexivity | reflexivity].
Qed.

Lemma empty_line_ps0 : forall p, zassoc_get key (l_syms (pg_link p)) = None -> PS0 p (codegen_line p (Some n) (Ok [])).
Proof. intros p Hf. rewrite (codegen_line_form p n [] eq_refl). exact (ps0_new_line p Hf). Qed.

Lemma ps0_compile_from : forall lines p p', PS0 p p' -> ~ In n (map fst lines) -> (l_cur (pg_link p) <= 0)%Z ->
  pg_errors (compile_from p lines) = [] \/ pg_errors (compile_from p' lines) = [] ->
  PS0 (compile_from p lines) (compile_from p' lines).
Proof.
  induction lines as [| [m ss] r IH]; intros p p' HP Hn Hc He; [exact HP |]. rewrite !compile_from_cons in *.
  cbn [map fst In] in Hn.
  assert (He1 : pg_errors (codegen_line p (Some m) (Ok ss)) = [] \/ pg_errors (codegen_line p' (Some m) (Ok ss)) = [])
    by (destruct He as [He | He]; [left | right]; exact (proj1 (compile_from_data r _ He))).
  destruct (ps0_codegen_line p p' m ss HP ltac:(intros E; apply Hn; left; exact E) Hc He1) as [HP1 Hc1].
  apply IH; [exact HP1 | intros Hin; apply Hn; right; exact Hin | exact Hc1 | exact He].
Qed.

(* the WHILE / WEND pairing reads the symbol table for its messages only *)
Lemma whiles_unl_indep : forall ws st syms syms' unl errs errs',
  fst (link_whiles_loop ws st syms' unl errs') = fst (link_whiles_loop ws st syms unl errs).
Proof.
  induction ws as [| [[[k c] a] sy] r IH]; intros st syms syms' unl errs errs'; cbn [link_whiles_loop]; [reflexivity |].
  destruct k; [apply IH |]. destruct st as [| [[wc wa] ws'] st']; apply IH.
Qed.

Definition no_ref (unl : list (N * (col * Z))) : Prop := forall a c, ~ In (a, (c, key)) unl.

Lemma whiles_no_ref : forall ws st syms unl errs,
  (forall k c a, ~ In (k, c, a, key) ws) -> (forall c a, ~ In (c, a, key) st) -> no_ref unl ->
  no_ref (fst (link_whiles_loop ws st syms unl errs)).
Proof.
  induction ws as [| [[[k c] a] sy] r IH]; intros st syms unl errs Hw Hst Hu; cbn [link_whiles_loop]; [exact Hu |].
  assert (Hsy : sy <> key) by (intros ->; exact (Hw k c a (or_introl eq_refl))).
  assert (Hr : forall k0 c0 a0, ~ In (k0, c0, a0, key) r) by (intros k0 c0 a0 Hin; exact (Hw k0 c0 a0 (or_intror Hin))).
  destruct k.
  - apply IH; [exact Hr | | exact Hu]. intros c0 a0 [E | Hin]; [injection E as _ _ E; exact (Hsy E) | exact (Hst c0 a0 Hin)].
  - destruct st as [| [[wc wa] ws'] st']; [apply IH; assumption |].
    apply IH; [exact Hr | intros c0 a0 Hin; exact (Hst c0 a0 (or_intror Hin)) |].
    intros a0 c0 Hin. apply nassoc_set_in in Hin. destruct Hin as [[_ E] | Hin].
    + injection E as _ E. exact (Hst wc wa (or_introl (f_equal _ (eq_sym E)))).
    + apply nassoc_set_in in Hin. destruct Hin as [[_ E] | Hin]; [injection E as _ E; exact (Hsy (eq_sym E)) | exact (Hu a0 c0 Hin)].
Qed.

(* resolving the references: only the looked-up entries matter for the instructions *)
Lemma fold_lstep_ops : forall syms syms' unl ops errs errs', Ins syms syms' -> no_ref unl ->
  fst (fold_left (lstep syms') unl (ops, errs')) = fst (fold_left (lstep syms) unl (ops, errs)).
Proof.
  intros syms syms' unl. induction unl as [| [addr [c sym]] r IH]; intros ops errs errs' Hi Hn; [reflexivity |]. cbn [fold_left].
  assert (Hsym : sym <> key) by (intros ->; exact (Hn addr c (or_introl eq_refl))).
  assert (Hr : no_ref r) by (intros a0 c0 Hin; exact (Hn a0 c0 (or_intror Hin))).
  unfold lstep at 2 4. rewrite (ins_get syms syms' sym Hi Hsym).
  destruct (zassoc_get sym syms) as [dest |]; [| destruct (0 <=? sym)%Z; apply IH; assumption].
  destruct (nthN ops addr) as [op |]; [| apply IH; assumption]. destruct (patch_op op dest); apply IH; assumption.
Qed.

Lemma link_link_ops_same : forall L L', LS L L' -> no_ref (l_unlinked L) -> (forall k c a, ~ In (k, c, a, key) (l_whiles L)) ->
  l_ops (fst (link_link L')) = l_ops (fst (link_link L)).
Proof.
  intros L L' (Ec & Eo & Ed & Ep & Es & Eu & Ew & Ei) Hnr Hnw.
  pose proof (link_link_is_fold L) as F. pose proof (link_link_is_fold L') as F'. rewrite Ew, Eu, Eo in F'.
  pose proof (whiles_unl_indep (l_whiles L) [] (l_syms L) (l_syms L') (l_unlinked L) [] []) as Ei2.
  pose proof (whiles_no_ref (l_whiles L) [] (l_syms L) (l_unlinked L) [] Hnw (fun c a H => H) Hnr) as Hunl.
  destruct (link_whiles_loop (l_whiles L) [] (l_syms L) (l_unlinked L) []) as [unl w].
  destruct (link_whiles_loop (l_whiles L) [] (l_syms L') (l_unlinked L) []) as [unl' w']. cbn [fst] in Ei2, Hunl. subst unl'.
  rewrite F, F'. exact (fold_lstep_ops (l_syms L) (l_syms L') unl (l_ops L) w w' Ei Hunl).
Qed.

(* the closing END is decided alike on both sides unless the new line starts at the end of the code *)
Lemma ps0_with_end : forall p p', PS0 p p' ->
  (forall v, fst v = lenN (l_ops (pg_link p)) -> ~ In (key, v) (l_syms (pg_link p'))) ->
  PS0 (with_end p) (with_end p').
Proof.
  intros p p' (H1 & H2 & H3 & (Lc & Lo & Ld & Lp & Ls & Lu & Lw & Li)) Hend. unfold with_end.
  assert (Hat : existsb (fun e : Z * (N * N) => fst (snd e) =? lenN (l_ops (pg_link p'))) (l_syms (pg_link p'))
                = existsb (fun e : Z * (N * N) => fst (snd e) =? lenN (l_ops (pg_link p))) (l_syms (pg_link p))).
  { rewrite Lo. destruct Li as [a [b [w [Es Es']]]]. rewrite Es, Es'. rewrite !existsb_app. cbn [existsb fst snd].
    destruct (N.eqb_spec (fst w) (lenN (l_ops (pg_link p)))) as [E | _]; [| reflexivity].
    exfalso. apply (Hend w E). rewrite Es'. apply in_or_app. right. left. reflexivity. }
  rewrite Hat, Lo. destruct (last_is_end _ && _); [repeat split; assumption |].
  unfold l_push, set_ops. rewrite Lo, Lc, Ld, Lp, Ls, Lu, Lw. cbn [l_ops].
  destruct (MAX_POOL <? lenN (l_ops (pg_link p) ++ [OpEnd])); unfold PS0, LS, prog_raw_error, with_link; cbn; rewrite ?H1; repeat split; assumption.
Qed.

Lemma with_end_refs p : l_unlinked (pg_link (with_end p)) = l_unlinked (pg_link p) /\ l_whiles (pg_link (with_end p)) = l_whiles (pg_link p).
Proof.
  unfold with_end. destruct (last_is_end _ && _); [split; reflexivity |]. unfold l_push.
  destruct (MAX_POOL <? _); split; reflexivity.
Qed.

Theorem empty_line_links_away : forall p p', PS0 p p' ->
  no_ref (l_unlinked (pg_link p)) -> (forall k c a, ~ In (k, c, a, key) (l_whiles (pg_link p))) ->
  (forall v, fst v = lenN (l_ops (pg_link p)) -> ~ In (key, v) (l_syms (pg_link p'))) ->
  l_ops (pg_link (program_link p')) = l_ops (pg_link (program_link p))
  /\ l_data (pg_link (program_link p')) = l_data (pg_link (program_link p))
  /\ pg_direct (program_link p') = pg_direct (program_link p).
Proof.
  intros p p' HP Hn Hwh Hend. rewrite !program_link_steps. destruct (with_end_refs p) as [Eu Ew]. rewrite <- Eu in Hn. rewrite <- Ew in Hwh.
  destruct (ps0_with_end p p' HP Hend) as (_ & _ & E3 & HL).
  destruct (link_tail_fields (with_end p)) as (A1 & A2 & A3). destruct (link_tail_fields (with_end p')) as (B1 & B2 & B3).
  rewrite A1, A2, A3, B1, B2, B3, E3, (link_link_ops_same _ _ HL Hn Hwh). destruct HL as (_ & _ & Ed & _). rewrite Ed. auto.
Qed.

End EmptyLine.

(* the same relation covers a second layout change: the statements of one line given as two consecutive lines, the second one
   numbered n.  Code, DATA, references and WHILE records are the same; the symbol table gains the entry for n. *)
Section Split.
Variable n : N.
Notation key := (Z.of_N n).

Lemma append_frags_app : forall a b p, pg_errors (append_stmt_frags p (a ++ b)) = [] ->
  append_stmt_frags p (a ++ b) = append_stmt_frags (append_stmt_frags p a) b /\ pg_errors (append_stmt_frags p a) = [].
Proof.
  induction a as [| f r IH]; intros b p H; cbn [app] in *.
  - split; [reflexivity |]. exact (proj1 (append_frags_data b p H)).
  - destruct (append_frags_cons f (r ++ b) p H) as (l' & E & Er). rewrite Er in H. cbn [append_stmt_frags]. rewrite E. exact (IH b _ H).
Qed.

Theorem split_line_compiles_same : forall p m s1 s2,
  pg_errors (codegen_line p (Some m) (Ok (s1 ++ s2))) = [] -> (l_cur (pg_link p) <= 0)%Z ->
  zassoc_get key (l_syms (pg_link (codegen_line p (Some m) (Ok s1)))) = None ->
  PS0 n (codegen_line p (Some m) (Ok (s1 ++ s2))) (codegen_line (codegen_line p (Some m) (Ok s1)) (Some n) (Ok s2)).
Proof.
  intros p m s1 s2 H Hc Hfresh.
  destruct (line_ok p m (s1 ++ s2) H) as (_ & Hss & E). rewrite E in *.
  apply Forall_app in Hss. destruct Hss as [Hs1 Hs2].
  rewrite (codegen_line_form p m s1 (proj2 (cg_errors_nil s1) Hs1)) in *.
  assert (Efr : frags_of (s1 ++ s2) = frags_of s1 ++ frags_of s2) by (unfold frags_of; rewrite !map_app; reflexivity).
  rewrite Efr in *.
  destruct (append_frags_app (frags_of s1) (frags_of s2) (sym_pushed p m) H) as [Eapp He].
  rewrite Eapp in *.
  set (Q := append_stmt_frags (sym_pushed p m) (frags_of s1)) in *.
  rewrite (codegen_line_form Q n s2 (proj2 (cg_errors_nil s2) Hs2)).
  apply ps0_append_frags; [exact (ps0_new_line n Q Hfresh) | apply frags_inv | | left; exact H].
  apply append_frags_cur; [apply frags_inv | exact Hc].
Qed.

End Split.


(* non-vacuity: 10 A=A+1:PRINT A; / 30 IF A<3 THEN 10, with and without an empty line 20 *)
Require Import String.
Definition el_stmts (s : string) : list stmt :=
  match lex (s2l s) with Ok (_, ts) => match parse None ts with Ok l => l | _ => [] end | _ => [] end.
Definition el_before : list (N * list stmt) := [(10, el_stmts "A=A+1:PRINT A;")].
Definition el_after : list (N * list stmt) := [(30, el_stmts "IF A<3 THEN 10")].
Definition el_p0 : program := mkProg [] [] 0 None (mkLink 0 [] [] 0 false [] [] []).
Example empty_line_premises :
  pg_errors (compile_from el_p0 (el_before ++ (20, []) :: el_after)) = [] /\ PInv (pg_link el_p0)
  /\ zassoc_get (Z.of_N 20) (l_syms (pg_link el_p0)) = None /\ ~ In 20 (map fst el_before) /\ ~ In 20 (map fst el_after)
  /\ pg_errors (compile_from el_p0 (el_before ++ el_after)) = []
  /\ no_ref 20 (l_unlinked (pg_link (compile_from el_p0 (el_before ++ el_after))))
  /\ (forall k c a, ~ In (k, c, a, Z.of_N 20) (l_whiles (pg_link (compile_from el_p0 (el_before ++ el_after)))))
  /\ lenN (l_ops (pg_link (compile_from el_p0 el_before))) <> lenN (l_ops (pg_link (compile_from el_p0 (el_before ++ el_after))))
  /\ l_unlinked (pg_link (compile_from el_p0 (el_before ++ el_after))) <> [].
Proof.
  (* the program without the line is mentioned five times: evaluate it once *)
  remember (compile_from el_p0 (el_before ++ el_after)) as P eqn:EP. vm_compute in EP. subst P.
  split; [vm_compute; reflexivity |]. split; [split; cbn; [lia | intros k v []] |]. split; [reflexivity |].
  split; [vm_compute; intuition discriminate |]. split; [vm_compute; intuition discriminate |]. split; [vm_compute; reflexivity |].
  split; [intros a c Hin; vm_compute in Hin; intuition congruence |].
  split; [intros k c a Hin; vm_compute in Hin; exact Hin |].
  split; [vm_compute; discriminate | vm_compute; discriminate].
Qed.
