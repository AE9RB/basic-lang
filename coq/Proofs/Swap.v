(* For C06 (SWAP; the theorems are in Props/C06.v): the code SWAP compiles to and its instructions one by one.
   C12: CLEAR forgets everything dynamic (static_eq, clear_forgets). *)
From BL Require Import Base.Prelude Base.Floats Mach.Val Mach.Ops Mach.Func Mach.Var
     Lang.Token Lang.Lex Lang.Ast Lang.Parse Mach.Compile Mach.Listing Mach.Runtime Proofs.ExprCompile Proofs.Vars.
From Coq Require Import Lia.
Local Open Scope N_scope.

Section Swap.
Variable O : oracle.

(* the code SWAP a,b compiles to for two scalar variables *)
Definition swap_code (a b : str) : list opcode := [OpPush b; OpPush a; OpSwap; OpPop b; OpPop a].

Lemma pop_pushed r v : pop (pushed r v) = (r, Ok v).
Proof. unfold pop, pushed. cbn. rewrite N.add_sub. destruct r; reflexivity. Qed.

Lemma exec_push_var h n r v : var_fetch (r_vars r) n = Ok v -> r_slen r + 1 <= MAX_POOL ->
  exec_op O h (OpPush n) r = (pushed r v, Ok None).
Proof. intros Hf Hs. cbn [exec_op]. unfold rbind, rget, rlift. rewrite Hf. rewrite (push_ok r v Hs). reflexivity. Qed.

Lemma exec_pop_var h n r v vs : var_store (r_vars r) n v = Ok vs ->
  exec_op O h (OpPop n) (pushed r v) = (set_vars r vs, Ok None).
Proof. intros Hv. cbn [exec_op]. unfold rbind at 1 2. rewrite pop_pushed, Hv. reflexivity. Qed.

Lemma run_cons h op rest r r1 : exec_op O h op r = (r1, Ok None) -> run_ops O h (op :: rest) r = run_ops O h rest r1.
Proof. intros E. cbn [run_ops]. unfold rbind. rewrite E. reflexivity. Qed.

(* same types: nothing happens -- the exchange is in the order of the two stores that follow *)
Lemma exec_swap h r va vb : r_slen r + 2 <= MAX_POOL ->
  exec_op O h OpSwap (pushed (pushed r vb) va)
  = if same_kind vb va then (pushed (pushed r vb) va, Ok None) else (pushed (pushed r va) vb, err E_TypeMismatch).
Proof.
  intros Hs. cbn [exec_op]. unfold rbind at 1. unfold do_swap, pop2. unfold rbind at 1 2. rewrite pop_pushed.
  unfold rbind at 1. rewrite pop_pushed. cbn [rret].
  destruct (same_kind vb va); unfold rbind; rewrite push_ok by lia; rewrite push_ok by (cbn; lia); reflexivity.
Qed.

Lemma swap_operands h a b r va vb : r_slen r + 2 <= MAX_POOL -> var_fetch (r_vars r) a = Ok va -> var_fetch (r_vars r) b = Ok vb ->
  run_ops O h (swap_code a b) r = run_ops O h [OpSwap; OpPop b; OpPop a] (pushed (pushed r vb) va).
Proof.
  intros Hs Ha Hb. unfold swap_code.
  rewrite (run_cons h _ _ r _ (exec_push_var h b r vb Hb ltac:(lia))).
  exact (run_cons h _ _ _ _ (exec_push_var h a (pushed r vb) va Ha ltac:(cbn; lia))).
Qed.

End Swap.

(* agreement on everything static (listing, compiled code and DATA, program counter, trace and cursor state, run state) and
   on the position in the entropy stream; left out: variables, arrays, DEFtype settings, user functions, value stack, DATA
   pointer, random-number state and CONT slot *)
Definition static_eq (r r' : rt) : Prop :=
  r_prompt r = r_prompt r' /\ r_listing r = r_listing r' /\ r_snap r = r_snap r' /\ r_dirty r = r_dirty r'
  /\ pg_errors (r_prog r) = pg_errors (r_prog r') /\ pg_ind_errors (r_prog r) = pg_ind_errors (r_prog r')
  /\ pg_direct (r_prog r) = pg_direct (r_prog r') /\ pg_line (r_prog r) = pg_line (r_prog r')
  /\ l_cur (pg_link (r_prog r)) = l_cur (pg_link (r_prog r')) /\ l_ops (pg_link (r_prog r)) = l_ops (pg_link (r_prog r'))
  /\ l_data (pg_link (r_prog r)) = l_data (pg_link (r_prog r')) /\ l_direct_set (pg_link (r_prog r)) = l_direct_set (pg_link (r_prog r'))
  /\ l_syms (pg_link (r_prog r)) = l_syms (pg_link (r_prog r')) /\ l_unlinked (pg_link (r_prog r)) = l_unlinked (pg_link (r_prog r'))
  /\ l_whiles (pg_link (r_prog r)) = l_whiles (pg_link (r_prog r'))
  /\ r_pc r = r_pc r' /\ r_tr r = r_tr r' /\ r_tron r = r_tron r' /\ r_entry r = r_entry r' /\ r_state r = r_state r'
  /\ r_cont_pc r = r_cont_pc r' /\ r_col r = r_col r' /\ r_ent r = r_ent r'.

(* in other words: they are the same machine once everything CLEAR resets is put to its reset value (and the random
   state, which CLEAR draws afresh from the entropy stream, to a constant) *)
Definition static_part (r : rt) : rt :=
  set_cont (set_fns (set_vars (set_stack_len (set_data_pos (set_rand r (0, 0, 0) (r_ent r)) 0) [] 0) vars_empty) []) StStopped.

Lemma static_eq_part : forall r r', static_eq r r' <-> static_part r = static_part r'.
Proof.
  intros r r'. unfold static_eq, static_part.
  destruct r as [p1 l1 s1 d1 pr1 pc1 tr1 tn1 en1 st1 sl1 v1 sta1 c1 cp1 col1 rn1 f1 e1].
  destruct r' as [p2 l2 s2 d2 pr2 pc2 tr2 tn2 en2 st2 sl2 v2 sta2 c2 cp2 col2 rn2 f2 e2].
  destruct pr1 as [pe1 pi1 pd1 pl1 lk1]. destruct pr2 as [pe2 pi2 pd2 pl2 lk2].
  destruct lk1 as [a1 b1 cc1 dd1 ee1 ff1 g1 h1]. destruct lk2 as [a2 b2 cc2 dd2 ee2 ff2 g2 h2].
  cbn. split; intros H.
  - repeat match goal with H : _ /\ _ |- _ => destruct H end. subst. reflexivity.
  - inversion H. subst. repeat split; reflexivity.
Qed.

Theorem clear_forgets : forall O r r', static_eq r r' -> fst (do_clear O r) = fst (do_clear O r').
Proof.
  intros O r r' H. apply static_eq_part in H.
  change (fst (do_clear O r)) with (fst (do_clear O (static_part r))). rewrite H. reflexivity.
Qed.
