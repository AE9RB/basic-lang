(* C01: control flow.  For programs made of LET (scalar variable, expression without function calls and arrays), PRINT,
   GOTO, ON..GOTO and END, the code that compilation and linking produce, run on the VM, follows the reference semantics
   Spec/Sem.v statement by statement.  Part 1: what the code generator emits for each statement, and the layout of a compiled program. *)
From BL Require Import Base.Prelude Base.Floats Mach.Val Mach.Ops Mach.Func Mach.Var
     Lang.Token Lang.Lex Lang.Ast Lang.Parse Mach.Compile Mach.Listing Mach.Runtime Spec.Sem Proofs.ExprCompile.
From Coq Require Import Lia.
Local Open Scope N_scope.

(* a fragment without DATA, without symbols of its own and without WHILE/WEND: code plus references to line numbers *)
Definition raw (cur : Z) (ops : list opcode) (unl : list (N * (col * Z))) : link := mkLink cur ops [] 0 false [] unl [].

(* the target of a branch as the parser leaves it: a Single literal; n is the line it denotes *)
Definition target_is (b : Z) (n : N) : Prop := to_line_number (VSng b) = Ok n.

Lemma frag_one op c : run_frag (ldo _ <~ l_push op ;; lret c) = ((c, plain [op]), []).
Proof. reflexivity. Qed.

Lemma cg_literal_sng ce b : cg_expr (ESng ce b) = ((ce, plain [OpLiteral (VSng b)]), []).
Proof. reflexivity. Qed.

Lemma cg_goto_shape : forall c ce b n, target_is b n ->
  cg_stmt (SGoto c (ESng ce b)) = (((fst c, snd ce), raw 0 [OpJump 0] [(0, (ce, Z.of_N n))]), []).
Proof.
  intros c ce b n Ht. unfold target_is in Ht. cbn [cg_stmt]. rewrite cg_literal_sng.
  unfold run_frag, lbind, pop_line_number, link_line_number. cbn [snd fst plain l_ops]. rewrite Ht. cbn [bind lret].
  reflexivity.
Qed.

Lemma cg_end_shape : forall c, cg_stmt (SEnd c) = ((c, raw 0 [OpEnd] []), []).
Proof. reflexivity. Qed.

Definition tgt := (col * Z * N)%type.          (* column, the literal's bits, the line it denotes *)
Definition tgt_expr (t : tgt) : expr := ESng (fst (fst t)) (snd (fst t)).
Definition tgt_ok (t : tgt) : Prop := target_is (snd (fst t)) (snd t).

Fixpoint jump_refs (base : N) (ts : list tgt) : list (N * (col * Z)) :=
  match ts with
  | [] => []
  | t :: r => (base, (fst (fst t), Z.of_N (snd t))) :: jump_refs (base + 1) r
  end.

Definition keys_below (unl : list (N * (col * Z))) (n : N) : Prop := forall k v, In (k, v) unl -> k < n.

Fixpoint keys_inc (l : list (N * (col * Z))) (lo : N) : Prop :=
  match l with [] => True | (k, _) :: r => lo <= k /\ keys_inc r (k + 1) end.

Lemma nassoc_set_fresh {V} k (v : V) l : (forall k' v', In (k', v') l -> k' <> k) -> nassoc_set k v l = l ++ [(k, v)].
Proof.
  induction l as [| [k' v'] r IH]; intros H; cbn; [reflexivity |].
  destruct (N.eqb_spec k k') as [-> | _]; [exfalso; apply (H k' v'); [left; reflexivity | reflexivity] |].
  rewrite IH; [reflexivity |]. intros a b Hin. apply (H a b). right. exact Hin.
Qed.

Lemma set_refs_fresh : forall refs acc lo, keys_below acc lo -> keys_inc refs lo -> set_refs refs acc = acc ++ refs.
Proof.
  induction refs as [| [k v] r IH]; intros acc lo Hk Hinc; cbn [set_refs fold_left fst snd]; [rewrite app_nil_r; reflexivity |].
  destruct Hinc as [Hlo Hinc]. rewrite nassoc_set_fresh by (intros k' v' Hin E; specialize (Hk k' v' Hin); lia).
  change (set_refs r (acc ++ [(k, v)]) = acc ++ (k, v) :: r). rewrite (IH _ (k + 1)); [rewrite <- app_assoc; reflexivity | | exact Hinc].
  intros k' v' Hin. apply in_app_or in Hin. destruct Hin as [Hin | [E | []]]; [specialize (Hk k' v' Hin); lia | injection E as <- _; lia].
Qed.

Lemma jump_refs_keys base ts k v : In (k, v) (jump_refs base ts) -> base <= k < base + lenN ts /\ (0 <= snd v)%Z.
Proof.
  revert base. induction ts as [| t r IH]; intros base H; [destruct H |]. cbn [jump_refs] in H.
  assert (Hl : lenN (t :: r) = lenN r + 1) by (unfold lenN; cbn [length]; lia).
  destruct H as [E | H]; [injection E as <- <-; cbn [snd]; lia | specialize (IH (base + 1) H); lia].
Qed.

Lemma jump_refs_inc : forall ts base, keys_inc (jump_refs base ts) base.
Proof. induction ts as [| t r IH]; intros base; cbn; [exact I |]. split; [lia | apply IH]. Qed.

(* what cg_on_targets returns: the end column of the last target *)
Definition last_end (ts : list tgt) (se : N) : N := fold_left (fun _ t => snd (fst (fst t))) ts se.

Lemma cg_on_targets_shape : forall (ts : list tgt) c se, Forall tgt_ok ts ->
  appends (cg_on_targets c (map (fun t : tgt => (fst (fst t), plain [OpLiteral (VSng (snd (fst t)))])) ts) se)
          (last_end ts se) 0 (repeat (OpJump 0) (length ts)) (fun b => jump_refs b ts).
Proof.
  induction ts as [| t r IH]; intros c se Hok; cbn [map cg_on_targets last_end fold_left length repeat jump_refs]; [apply appends_ret |].
  inversion Hok as [| ? ? Ht Hr]; subst. unfold tgt_ok, target_is in Ht.
  unfold link_line_number. cbn [snd fst plain l_ops]. rewrite Ht. cbn [bind].
  unfold l_push_goto, sym_of_line, l_push_jump. appends_by ltac:(apply (IH c _ Hr)).
  intros b. cbn [app]. unfold lenN. cbn [length N.of_nat]. rewrite !N.add_0_r. reflexivity.
Qed.

Definition on_code (e : expr) (ts : list tgt) : list opcode :=
  OpLiteral (VInt (Z.of_N (lenN ts))) :: postfix e ++ [OpOn] ++ repeat (OpJump 0) (length ts).

Lemma on_code_split e ts : on_code e ts = (OpLiteral (VInt (Z.of_N (lenN ts))) :: postfix e ++ [OpOn]) ++ repeat (OpJump 0) (length ts).
Proof. unfold on_code. cbn [app]. rewrite <- app_assoc. reflexivity. Qed.

Lemma lenN_on_code e ts : lenN (on_code e ts) = 2 + lenN (postfix e) + lenN ts.
Proof. unfold on_code, lenN. cbn [length]. rewrite !app_length, repeat_length. cbn [length]. lia. Qed.

Lemma cg_on_shape : forall c e (ts : list tgt), pure e = true -> Forall tgt_ok ts -> lenN ts <= 32767 ->
  lenN (on_code e ts) <= MAX_POOL ->
  exists se, cg_stmt (SOnGoto c e (map tgt_expr ts))
             = (((fst c, se), raw (-1) (on_code e ts) (jump_refs (2 + lenN (postfix e)) ts)), []).
Proof.
  intros c e ts Hp Hok Hlen Hs.
  destruct (cg_expr_postfix e Hp ltac:(rewrite lenN_on_code in Hs; lia)) as [E1 E2].
  cbn [cg_stmt]. destruct (cg_expr e) as [[ec el] eerrs]. cbn [fst snd] in E1, E2. subst el eerrs.
  assert (Hm1 : map fst (map cg_expr (map tgt_expr ts)) = map (fun t : tgt => (fst (fst t), plain [OpLiteral (VSng (snd (fst t)))])) ts).
  { rewrite !map_map. apply map_ext. intros t. reflexivity. }
  assert (Hm2 : flat_map snd (map cg_expr (map tgt_expr ts)) = []).
  { clear. induction ts; cbn; auto. }
  cbv zeta. rewrite Hm1, Hm2. cbn [app fst snd]. unfold val_of_len.
  assert (Hlm : lenN (map tgt_expr ts) = lenN ts) by (unfold lenN; rewrite map_length; reflexivity).
  rewrite Hlm. destruct (N.leb_spec (lenN ts) 32767); [| lia].
  exists (last_end ts (snd ec)).
  rewrite (run_frag_appends _ (fst c, last_end ts (snd ec)) (-1) (on_code e ts) (fun b => jump_refs (b + (2 + lenN (postfix e))) ts)).
  - rewrite (set_refs_fresh _ [] _ ltac:(intros k v []) (jump_refs_inc ts _)). reflexivity.
  - appends_by ltac:(first [apply appends_next_symbol; intros ? | apply (cg_on_targets_shape ts c _ Hok)]).
    + unfold on_code. cbn [app]. rewrite !app_nil_r. reflexivity.
    + intros b. cbn [app]. rewrite app_nil_r, !lenN_one. f_equal. unfold lenN at 1. cbn [length N.of_nat]. lia.
  - exact Hs.
Qed.

(* PRINT: items without function calls (TAB and SPC are calls) *)
Definition print_code (es : list expr) : list opcode := flat_map (fun e => postfix e ++ [OpPrint]) es.

Lemma print_code_app a b : print_code (a ++ b) = print_code a ++ print_code b.
Proof. unfold print_code. apply flat_map_app. Qed.

Lemma cg_print_shape : forall c es, forallb pure es = true -> lenN (print_code es) <= MAX_POOL ->
  cg_stmt (SPrint c es) = ((c, plain (print_code es)), []).
Proof.
  intros c es Hp Hs. cbn [cg_stmt].
  assert (Hfr : map fst (map cg_expr es) = map (fun e => (fst (fst (cg_expr e)), plain (postfix e))) es /\ flat_map snd (map cg_expr es) = []).
  { revert Hp Hs. induction es as [| e r IH]; intros Hp Hs; [split; reflexivity |]. cbn [forallb] in Hp. apply andb_prop in Hp. destruct Hp as [He Hr].
    cbn [print_code flat_map] in Hs. fold (print_code r) in Hs. rewrite !lenN_app, lenN_one in Hs.
    destruct (cg_expr_postfix e He ltac:(lia)) as [E1 E2]. destruct (IH Hr ltac:(lia)) as [I1 I2].
    cbn [map flat_map]. rewrite I1, I2, E2. split; [| reflexivity]. f_equal.
    destruct (cg_expr e) as [[ce le] ee]. cbn [fst snd] in *. subst le. reflexivity. }
  destruct Hfr as [E1 E2]. rewrite E1, E2. cbn [app].
  rewrite (run_frag_appends _ c 0 (print_code es) (fun _ => [])); [reflexivity | | exact Hs].
  appends_by ltac:(apply (appends_fold (fun f : col * link => ldo _ <~ l_append (snd f) ;; l_push OpPrint) (fun f => l_ops (snd f) ++ [OpPrint]) _ (lret tt) []);
                   [intros [cf lf] Hin; apply in_map_iff in Hin; destruct Hin as (e & <- & _); appends_seq |]).
  cbn [app]. rewrite app_nil_r, flat_map_concat_map, map_map, <- flat_map_concat_map. reflexivity.
Qed.

(* what one statement of the fragment contributes: code with placeholder jumps, references (relative address, column,
   target line), and the number of local symbols it consumes *)
Record piece := mkPiece { pc_ops : list opcode; pc_refs : list (N * (col * Z)); pc_cur : Z }.

Inductive fstmt : stmt -> piece -> Prop :=
| fs_let : forall c cv i e, pure e = true -> builtin_arity (ident_str i) = None ->
    fstmt (SLet c (VUnary cv i) e) (mkPiece (let_code i e) [] 0)
| fs_goto : forall c ce b n, target_is b n ->
    fstmt (SGoto c (ESng ce b)) (mkPiece [OpJump 0] [(0, (ce, Z.of_N n))] 0)
| fs_on : forall c e (ts : list tgt), pure e = true -> Forall tgt_ok ts -> lenN ts <= 32767 ->
    fstmt (SOnGoto c e (map tgt_expr ts)) (mkPiece (on_code e ts) (jump_refs (2 + lenN (postfix e)) ts) (-1))
| fs_end : forall c, fstmt (SEnd c) (mkPiece [OpEnd] [] 0)
| fs_print : forall c es, forallb pure es = true -> fstmt (SPrint c es) (mkPiece (print_code es) [] 0).

Lemma refs_in_code s p : fstmt s p -> forall k v, In (k, v) (pc_refs p) -> k < lenN (pc_ops p) /\ (0 <= snd v)%Z.
Proof.
  intros H k v Hin. destruct H; cbn [pc_refs pc_ops] in *.
  - destruct Hin.
  - destruct Hin as [E | []]. injection E as <- <-. cbn. unfold lenN. cbn. lia.
  - destruct (jump_refs_keys _ _ _ _ Hin) as [Hk Hv]. split; [rewrite lenN_on_code; lia | exact Hv].
  - destruct Hin.
  - destruct Hin.
Qed.

Lemma fstmt_cg s p : fstmt s p -> lenN (pc_ops p) <= MAX_POOL ->
  exists c, cg_stmt s = ((c, raw (pc_cur p) (pc_ops p) (pc_refs p)), []).
Proof.
  intros H Hs. destruct H; cbn [pc_ops pc_refs pc_cur] in *.
  - destruct (cg_let_shape c cv i e H H0 Hs) as [E1 E2]. destruct (cg_stmt (SLet c (VUnary cv i) e)) as [[cc l] errs].
    cbn [fst snd] in *. subst. exists cc. reflexivity.
  - eexists. apply cg_goto_shape. exact H.
  - destruct (cg_on_shape c e ts H H0 H1 Hs) as [se E]. eexists. exact E.
  - eexists. reflexivity.
  - eexists. apply (cg_print_shape c es H Hs).
Qed.

(* the link of a program under compilation: no DATA, no WHILE/WEND *)
Definition plink (cur : Z) (ops : list opcode) (syms : list (Z * (N * N))) (unl : list (N * (col * Z))) (dp : N) : link :=
  mkLink cur ops [] dp false syms unl [].

Definition shift (by_ : N) (refs : list (N * (col * Z))) : list (N * (col * Z)) :=
  map (fun r => (fst r + by_, snd r)) refs.

Lemma shift_inc : forall refs lo by_, keys_inc refs lo -> keys_inc (shift by_ refs) (lo + by_).
Proof.
  induction refs as [| [k v] r IH]; intros lo by_ H; cbn; [exact I |]. cbn [keys_inc] in H. destruct H as [Hk H].
  split; [lia |]. specialize (IH (k + 1) by_ H). replace (k + by_ + 1) with (k + 1 + by_) by lia. exact IH.
Qed.

Lemma fold_left_map_in {A B C} (f : A -> B -> A) (g : A -> C -> A) (h : B -> C) : forall l a,
  (forall a x, In x l -> f a x = g a (h x)) -> fold_left f l a = fold_left g (map h l) a.
Proof.
  induction l as [| x r IH]; intros a H; cbn [fold_left map]; [reflexivity |]. rewrite (H a x (or_introl eq_refl)).
  apply IH. intros a' y Hy. apply H. right. exact Hy.
Qed.

Lemma keys_inc_weaken : forall l lo lo', lo' <= lo -> keys_inc l lo -> keys_inc l lo'.
Proof. destruct l as [| [k v] r]; cbn; intros lo lo' H Hk; [exact I |]. destruct Hk. split; [lia | assumption]. Qed.

Lemma fstmt_refs_inc s p : fstmt s p -> keys_inc (pc_refs p) 0.
Proof.
  intros H. destruct H; cbn [pc_refs keys_inc]; try exact I.
  - split; [lia | exact I].
  - apply (keys_inc_weaken _ (2 + lenN (postfix e))); [lia | apply jump_refs_inc].
Qed.

Lemma l_append_plink : forall s p cur ops syms unl dp, fstmt s p -> keys_below unl (lenN ops) ->
  lenN (ops ++ pc_ops p) <= MAX_POOL ->
  l_append (raw (pc_cur p) (pc_ops p) (pc_refs p)) (plink cur ops syms unl dp)
  = (plink (cur + pc_cur p) (ops ++ pc_ops p) syms (unl ++ shift (lenN ops) (pc_refs p)) dp, Ok tt).
Proof.
  intros s p cur ops syms unl dp Hf Hk Hs. unfold l_append, raw, plink, set_data.
  cbn [l_direct_set l_data l_ops l_cur l_syms l_unlinked l_whiles l_data_pos andb fold_left map app].
  rewrite (fold_left_map_in _ (fun u r => nassoc_set (fst r) (snd r) u) (fun r => (fst r + lenN ops, snd r)) (pc_refs p) unl).
  - (* the references of the fragment, moved behind the code that is there, are recorded like any others *)
    fold (shift (lenN ops) (pc_refs p)). fold (set_refs (shift (lenN ops) (pc_refs p)) unl).
    rewrite (set_refs_fresh _ unl (0 + lenN ops) Hk (shift_inc _ 0 _ (fstmt_refs_inc s p Hf))).
    cbn [l_ops]. destruct (N.ltb_spec MAX_POOL (lenN (ops ++ pc_ops p))); [lia |]. cbn. reflexivity.
  - (* they name line numbers, not local symbols, so the symbol offset does not touch them *)
    intros u [k [c sy]] Hin. cbn [fst snd]. pose proof (proj2 (refs_in_code s p Hf k _ Hin)) as Hs'. cbn [snd] in Hs'.
    destruct (Z.ltb_spec sy 0); [lia | reflexivity].
Qed.

Definition is_plink (L : link) : Prop := L = plink (l_cur L) (l_ops L) (l_syms L) (l_unlinked L) (l_data_pos L).

Definition add_piece (L : link) (p : piece) : link :=
  plink (l_cur L + pc_cur p) (l_ops L ++ pc_ops p) (l_syms L) (l_unlinked L ++ shift (lenN (l_ops L)) (pc_refs p)) (l_data_pos L).

Definition add_line (L : link) (ln : N * list piece) : link :=
  fold_left add_piece (snd ln)
    (plink (l_cur L) (l_ops L) (zassoc_set (Z.of_N (fst ln)) (lenN (l_ops L), 0) (l_syms L)) (l_unlinked L) (l_data_pos L)).

Definition layout (lines : list (N * list piece)) (dp : N) : link := fold_left add_line lines (plink 0 [] [] [] dp).

Lemma pieces_ops : forall ps L, l_ops (fold_left add_piece ps L) = l_ops L ++ flat_map pc_ops ps.
Proof.
  induction ps as [| p r IH]; intros L; cbn [fold_left flat_map]; [rewrite app_nil_r; reflexivity |].
  rewrite IH. unfold add_piece, plink. cbn [l_ops]. rewrite <- app_assoc. reflexivity.
Qed.

Lemma lines_ops : forall lns L, l_ops (fold_left add_line lns L) = l_ops L ++ flat_map (fun ln => flat_map pc_ops (snd ln)) lns.
Proof.
  induction lns as [| ln r IH]; intros L; cbn [fold_left flat_map]; [rewrite app_nil_r; reflexivity |].
  rewrite IH. unfold add_line. rewrite pieces_ops, <- app_assoc. reflexivity.
Qed.

Definition well_keyed (L : link) : Prop := keys_below (l_unlinked L) (lenN (l_ops L)).

Lemma add_piece_keyed s L p : fstmt s p -> well_keyed L -> well_keyed (add_piece L p).
Proof.
  intros Hf Hk k v Hin. unfold add_piece, plink in *. cbn [l_unlinked l_ops] in *. rewrite lenN_app.
  apply in_app_or in Hin. destruct Hin as [Hin | Hin]; [specialize (Hk k v Hin); lia |].
  unfold shift in Hin. rewrite in_map_iff in Hin. destruct Hin as [[k0 v0] [E Hin]]. cbn in E. injection E as <- <-.
  pose proof (proj1 (refs_in_code s p Hf k0 v0 Hin)). lia.
Qed.

Lemma append_frags_layout : forall stmts pieces pr,
  Forall2 fstmt stmts pieces -> is_plink (pg_link pr) -> well_keyed (pg_link pr) ->
  lenN (l_ops (fold_left add_piece pieces (pg_link pr))) <= MAX_POOL ->
  exists frs, map cg_stmt stmts = map (fun f => (f, @nil error)) frs /\
    append_stmt_frags pr frs = with_link pr (fold_left add_piece pieces (pg_link pr)).
Proof.
  induction stmts as [| s r IH]; intros pieces pr H2 Hpl Hk Hs; inversion H2 as [| ? p ? ps Hf Hr]; subst.
  - exists []. split; [reflexivity |]. cbn. destruct pr; reflexivity.
  - cbn [fold_left] in Hs.
    assert (Hs1 : lenN (l_ops (pg_link pr) ++ pc_ops p) <= MAX_POOL).
    { rewrite pieces_ops, lenN_app in Hs. change (l_ops (add_piece (pg_link pr) p)) with (l_ops (pg_link pr) ++ pc_ops p) in Hs. lia. }
    destruct (fstmt_cg s p Hf ltac:(rewrite lenN_app in Hs1; lia)) as [c Ec].
    set (pr1 := with_link pr (add_piece (pg_link pr) p)).
    destruct (IH ps pr1 Hr) as (frs & Em & Ea).
    + unfold pr1, with_link, is_plink, add_piece, plink. cbn. reflexivity.
    + unfold pr1, with_link. cbn [pg_link]. exact (add_piece_keyed s _ p Hf Hk).
    + unfold pr1, with_link. cbn [pg_link]. exact Hs.
    + exists ((c, raw (pc_cur p) (pc_ops p) (pc_refs p)) :: frs). split; [cbn [map]; rewrite Ec, Em; reflexivity |].
      cbn [append_stmt_frags snd]. rewrite Hpl.
      rewrite (l_append_plink s p _ _ _ _ _ Hf Hk Hs1).
      fold (add_piece (pg_link pr) p). rewrite <- Hpl. fold pr1. rewrite Ea. unfold pr1, with_link. cbn [pg_link fold_left]. reflexivity.
Qed.

Lemma codegen_line_layout : forall n stmts pieces pr,
  Forall2 fstmt stmts pieces -> is_plink (pg_link pr) -> well_keyed (pg_link pr) -> pg_errors pr = [] ->
  lenN (l_ops (add_line (pg_link pr) (n, pieces))) <= MAX_POOL ->
  codegen_line pr (Some n) (Ok stmts) =
  mkProg [] (pg_ind_errors pr) (pg_direct pr) (Some n) (add_line (pg_link pr) (n, pieces)).
Proof.
  intros n stmts pieces pr H2 Hpl Hk He Hs. unfold codegen_line. unfold l_push_symbol.
  set (p2 := with_link (mkProg (pg_errors pr) (pg_ind_errors pr) (pg_direct pr) (Some n) (pg_link pr)) _).
  assert (Hl2 : pg_link p2 = plink (l_cur (pg_link pr)) (l_ops (pg_link pr)) (zassoc_set (Z.of_N n) (lenN (l_ops (pg_link pr)), 0) (l_syms (pg_link pr)))
                                  (l_unlinked (pg_link pr)) (l_data_pos (pg_link pr))).
  { unfold p2, with_link. cbn [pg_link]. rewrite Hpl. cbn. reflexivity. }
  unfold add_line in Hs |- *. cbn [fst snd] in Hs |- *. rewrite <- Hl2 in Hs |- *.
  destruct (append_frags_layout stmts pieces p2 H2) as (frs & Em & Ea); try exact Hs.
  - rewrite Hl2. unfold is_plink, plink. cbn. reflexivity.
  - rewrite Hl2. unfold well_keyed, plink. cbn [l_unlinked l_ops]. exact Hk.
  - unfold codegen_ast. rewrite Em.
    assert (Hf : flat_map snd (map (fun f : frag => (f, @nil error)) frs) = []) by (clear; induction frs; cbn; auto).
    assert (Hm : map fst (map (fun f : frag => (f, @nil error)) frs) = frs) by (clear; induction frs; cbn; [reflexivity | f_equal; assumption]).
    rewrite Hf, Hm. cbn [fold_left]. rewrite Ea. unfold p2, with_link. cbn. rewrite He. reflexivity.
Qed.

Definition compile_asts (lines : list (N * list stmt)) (dp : N) : program :=
  fold_left (fun p e => codegen_line p (Some (fst e)) (Ok (snd e))) lines (mkProg [] [] 0 None (plink 0 [] [] [] dp)).

Lemma add_line_keyed : forall n stmts pieces L, Forall2 fstmt stmts pieces -> well_keyed L -> well_keyed (add_line L (n, pieces)).
Proof.
  intros n stmts pieces L H2 Hk. unfold add_line. cbn [fst snd].
  set (L0 := plink _ _ _ _ _). assert (Hk0 : well_keyed L0) by exact Hk. clearbody L0. revert L0 Hk0.
  induction H2 as [| s p ss ps Hf _ IH]; intros L0 Hk0; cbn [fold_left]; [exact Hk0 |].
  apply IH. exact (add_piece_keyed s L0 p Hf Hk0).
Qed.

Lemma add_line_plink : forall ln L, is_plink (add_line L ln).
Proof.
  intros [n ps] L. unfold add_line. cbn [fst snd]. destruct ps as [| p ps _] using rev_ind; [reflexivity |].
  rewrite fold_left_app. reflexivity.
Qed.

Theorem compile_is_layout : forall lines plines dp,
  Forall2 (fun l pl => fst l = fst pl /\ Forall2 fstmt (snd l) (snd pl)) lines plines ->
  lenN (l_ops (layout plines dp)) <= MAX_POOL ->
  pg_link (compile_asts lines dp) = layout plines dp /\ pg_errors (compile_asts lines dp) = []
  /\ pg_direct (compile_asts lines dp) = 0 /\ pg_ind_errors (compile_asts lines dp) = [].
Proof.
  intros lines plines dp. unfold compile_asts, layout.
  set (pr0 := mkProg [] [] 0 None (plink 0 [] [] [] dp)).
  assert (H0 : is_plink (pg_link pr0) /\ well_keyed (pg_link pr0) /\ pg_errors pr0 = [] /\ pg_direct pr0 = 0 /\ pg_ind_errors pr0 = []).
  { unfold pr0. cbn. repeat split; try reflexivity. intros k v []. }
  change (plink 0 [] [] [] dp) with (pg_link pr0). clearbody pr0. revert pr0 H0.
  intros pr0 H0 H2. revert pr0 H0.
  induction H2 as [| [n stmts] [n' pieces] ls pls [En Hf] _ IH]; intros pr0 (Hpl & Hk & He & Hd & Hi) Hs; cbn [fold_left] in *.
  - repeat split; assumption.
  - cbn [fst snd] in En, Hf |- *. subst n'.
    assert (Hs1 : lenN (l_ops (add_line (pg_link pr0) (n, pieces))) <= MAX_POOL) by (rewrite lines_ops, lenN_app in Hs; lia).
    rewrite (codegen_line_layout n stmts pieces pr0 Hf Hpl Hk He Hs1).
    apply IH.
    + cbn [pg_link pg_errors pg_direct pg_ind_errors]. repeat split; try assumption; try reflexivity.
      * apply add_line_plink.
      * exact (add_line_keyed n stmts pieces _ Hf Hk).
    + cbn [pg_link]. exact Hs.
Qed.
