(* C19 -- compile-time diagnostics point into the listed line and block execution.
   Proved here: with errors recorded for the stored program every jump into program code stops the machine and reports
   them, leaving stack, variables and column alone; jumps that stay inside the direct line are ordinary jumps; a listed
   line comes with exactly the error ranges recorded for that line, shifted by the width of the line-number prefix.
   Proved (Proofs/LinkErr.v, Proofs/ParseCols.v, Proofs/RefCols.v): a branch to a missing line is reported as UNDEFINED
   LINE in the line it stands on; the range the parser records for a line-number operand is exactly that of its number
   token, for WHILE and WEND that of the keyword, and the code generator hands these ranges on to the linker. *)
From BL Require Import Base.Prelude Mach.Val Mach.Compile Mach.Listing Mach.Runtime.
Local Open Scope N_scope.

(* the range shown to the user is the parser's range shifted by the width of "<line number> " *)
Theorem C19_error_column_shift : forall code n a b,
  error_column (mkErr code (Some n) (a, b)) = (a + lenN (dec_of_N n) + 1, b + lenN (dec_of_N n) + 1).
Proof. intros. unfold error_column. cbn. f_equal; lia. Qed.
Print Assumptions C19_error_column_shift.

Theorem C19_jump_into_faulty_program_blocked : forall O a r, a < r_entry r ->
  let '(r', x) := exec_op O true (OpJump a) r in
  x = Ok (Some (EvErrors (ls_ind_errors (r_listing r)))) /\ r_state r' = StStopped /\ r_cont r' = StStopped
  /\ r_stack r' = r_stack r /\ r_vars r' = r_vars r /\ r_col r' = r_col r.
Proof.
  intros O a r H. cbn [exec_op]. unfold rbind, rmod, rget. cbn [r_pc set_pc r_entry].
  destruct (N.ltb_spec a (r_entry r)); [| lia]. cbn. repeat split; reflexivity.
Qed.
Print Assumptions C19_jump_into_faulty_program_blocked.

Theorem C19_jump_within_direct_line : forall O h a r, r_entry r <= a -> exec_op O h (OpJump a) r = (set_pc r a, Ok None).
Proof.
  intros O h a r H. cbn [exec_op]. unfold rbind, rmod, rget. cbn [r_pc set_pc r_entry].
  destruct (N.ltb_spec a (r_entry r)); [lia |]. rewrite andb_false_r. reflexivity.
Qed.
Print Assumptions C19_jump_within_direct_line.

Theorem C19_underline_ranges : forall l a b text cols next, list_line l a b = Ok (Some (text, cols, next)) ->
  exists n toks, text = line_to_string (Some n, toks) /\ In (n, toks) (ls_lines l) /\ a <= n <= b
    /\ cols = map error_column (filter (fun e => match eline e with Some k => k =? n | None => false end) (ls_ind_errors l)).
Proof.
  intros l a b text cols next H. unfold list_line in H. destruct (b <? a); [discriminate |].
  destruct (filter (fun e => in_rng a b (fst e)) (ls_lines l)) as [| [n toks] rest] eqn:Ef; [discriminate |].
  injection H as <- <- _. exists n, toks.
  assert (Hin : In (n, toks) (filter (fun e => in_rng a b (fst e)) (ls_lines l))) by (rewrite Ef; left; reflexivity).
  apply filter_In in Hin. destruct Hin as [Hin Hr]. cbn in Hr. unfold in_rng in Hr. apply andb_prop in Hr. destruct Hr as [H1 H2].
  apply N.leb_le in H1, H2. repeat split; try assumption; reflexivity.
Qed.
Print Assumptions C19_underline_ranges.

From BL Require Import Lang.Ast Proofs.Reloc Proofs.Flow Proofs.Flow2 Proofs.LinkErr.

(* every unresolved reference to a line number yields UNDEFINED LINE with the line that holds the code address and the
   column range recorded with the reference; the unresolved instruction stays as it was *)
Theorem C19_undefined_line_reported : forall syms unl acc addr c sym, In (addr, (c, sym)) unl -> zassoc_get sym syms = None -> (0 <= sym)%Z ->
  In (mkErr E_UndefinedLine (line_number_for syms addr) c) (snd (fold_left (lstep syms) unl acc)).
Proof. exact undefined_line_reported. Qed.
Print Assumptions C19_undefined_line_reported.

(* in a compiled program (lines ascending) an address inside the code of line n is attributed to line n *)
Theorem C19_address_belongs_to_line : forall before n ps after lo addr,
  ascending (before ++ (n, ps) :: after) lo -> n <= 65529 ->
  lenN (prog_ops before) <= addr < lenN (prog_ops before) + lenN (line_ops (n, ps)) ->
  line_number_for (line_syms (before ++ (n, ps) :: after) 0) addr = Some n.
Proof. exact address_belongs_to_line. Qed.
Print Assumptions C19_address_belongs_to_line.

(* together, for GOTO and ON..GOTO statements: a target m that is no line of the program is reported as UNDEFINED LINE in
   the line n the statement stands on, at the column range c the parser recorded for the number *)
Theorem C19_branch_to_missing_line_is_reported : forall before n pb p pa after lo s k c m,
  let pls := before ++ (n, pb ++ p :: pa) :: after in
  ascending pls lo -> n <= 65529 -> fstmt s p -> In (k, (c, Z.of_N m)) (pc_refs p) -> (forall pl, In pl pls -> fst pl <> m) ->
  In (mkErr E_UndefinedLine (Some n) c) (snd (fold_left (lstep (line_syms pls 0)) (line_refs pls 0) (prog_ops pls, []))).
Proof.
  intros before n pb p pa after lo s k c m pls Ha Hn Hs Hin Hmiss.
  pose proof (ref_address before n pb p pa after k (c, Z.of_N m) Hin) as Href. fold pls in Href.
  assert (Hnone : zassoc_get (Z.of_N m) (line_syms pls 0) = None).
  { apply zassoc_get_none. intros k0 v0 Hk E. destruct (line_syms_keys pls 0 k0 v0 Hk) as (pl & Hpl & ->). apply N2Z.inj in E. exact (Hmiss pl Hpl E). }
  pose proof (undefined_line_reported (line_syms pls 0) (line_refs pls 0) (prog_ops pls, []) _ c (Z.of_N m) Href Hnone ltac:(lia)) as Hrep.
  rewrite (address_belongs_to_line before n (pb ++ p :: pa) after lo _ Ha Hn) in Hrep; [exact Hrep |].
  destruct (refs_in_code s p Hs k (c, Z.of_N m) Hin) as [Hk _]. unfold line_ops. cbn [snd]. rewrite flat_map_app, ExprCompile.lenN_app. cbn [flat_map]. rewrite ExprCompile.lenN_app. lia.
Qed.
Print Assumptions C19_branch_to_missing_line_is_reported.

From BL Require Import Lang.Token Lang.Parse Proofs.ParseCols.

(* every token is handed to the parser with the range it occupies in the concatenation of the token texts, blanks included *)
Theorem C19_token_range : forall all st t st', Pos all st -> p_next st = (Some t, st') ->
  Pos all st' /\ exists before after, all = before ++ t :: after /\ p_cs st' = widths before /\ p_ce st' = widths before + width t.
Proof. exact next_gives_range. Qed.
Print Assumptions C19_token_range.

(* wherever the statement parser stops it stands on a token boundary of the line (or behind its end) *)
Theorem C19_parser_stays_aligned : forall all fuel b st l st', At all st -> statements fuel b st = Ok (l, st') -> At all st'.
Proof. intros all fuel b. exact (tame_keeps all _ (proj2 (proj2 (ParseSafe.tame_stmts fuel)) b)). Qed.
Print Assumptions C19_parser_stays_aligned.

Theorem C19_line_number_operand_range : forall all st e st', Pos all st -> expect_line_number st = Ok (e, st') ->
  Pos all st' /\ exists before l s after n,
    all = before ++ TLit l :: after /\ is_lnum_lit l = Some s /\ parse_u16 s = Some n /\ n <= 65529
    /\ e = lnum_expr (widths before, widths before + lenN s) n.
Proof.
  intros all st e st' HP E.
  destruct (spec_keeps all _ _ _ (spec_expect_line_number all (fun _ => True)) st e st' (or_introl HP) I E)
    as [_ (n & (l & s & [HP' (before & after & Eall & Hc)] & Hl & Hu & Hle) & ->)].
  split; [exact HP' |]. exists before, l, s, after, n. rewrite Hc. unfold width. rewrite (lnum_lit_str l s Hl).
  repeat split; assumption.
Qed.
Print Assumptions C19_line_number_operand_range.

(* the whole line, every statement form: each branch target of GOTO, GOSUB, ON..GOTO / GOSUB, THEN n, ELSE n, RESTORE n, RUN n
   carries exactly the range of its number token, each WHILE and WEND exactly the range of its keyword -- at any nesting of IF *)
Theorem C19_parse_columns_exact : forall n toks l, parse n toks = Ok l -> good_stmts toks l.
Proof. exact parse_columns_exact. Qed.
Print Assumptions C19_parse_columns_exact.

Example C19_columns_demo :
  match parse None cols_demo_toks with
  | Ok l => map (cut (tokens_str cols_demo_toks)) (branch_cols l) = [[49; 48; 48]; [50; 48; 48; 48]]%list /\ branch_cols l = [(24, 27); (39, 43)]%list
  | _ => False
  end.
Proof. exact cols_demo. Qed.

From BL Require Import Proofs.RefCols.

(* for every line that parses and every statement of it, of any form: each reference to a program line that the statement's code
   leaves for the linker (non-negative symbol) carries the character range of a number token of that line *)
Theorem C19_line_references_carry_number_ranges : forall n toks ast s, parse n toks = Ok ast -> In s ast ->
  forall a c sym, In (a, (c, sym)) (l_unlinked (snd (fst (cg_stmt s)))) -> (0 <= sym)%Z -> num_range toks c.
Proof.
  intros n toks ast s Hp Hin a c sym.
  pose proof (parse_columns_exact n toks ast Hp) as Hg. rewrite good_stmts_Forall, Forall_forall in Hg.
  exact (proj2 (cg_stmt_refs toks s (Hg s Hin)) a c sym).
Qed.
Print Assumptions C19_line_references_carry_number_ranges.

(* the numbers of the diagnostics are the source's (coq/Gen/SourceTables.v is regenerated from enum ErrorCode by tools/tables.py
   on every run; Proofs/SourceTables.v) *)
From BL Require Import Gen.SourceTables Proofs.SourceTables.
Theorem C19_error_codes_are_the_sources :
  E_Break = src_E_Break /\ E_NextWithoutFor = src_E_NextWithoutFor /\ E_Syntax = src_E_SyntaxError
  /\ E_ReturnWithoutGosub = src_E_ReturnWithoutGosub /\ E_OutOfData = src_E_OutOfData
  /\ E_IllegalFunctionCall = src_E_IllegalFunctionCall /\ E_Overflow = src_E_Overflow /\ E_OutOfMemory = src_E_OutOfMemory
  /\ E_UndefinedLine = src_E_UndefinedLine /\ E_Subscript = src_E_SubscriptOutOfRange /\ E_Redim = src_E_RedimensionedArray
  /\ E_DivByZero = src_E_DivisionByZero /\ E_IllegalDirect = src_E_IllegalDirect /\ E_TypeMismatch = src_E_TypeMismatch
  /\ E_StringTooLong = src_E_StringTooLong /\ E_CantContinue = src_E_CantContinue /\ E_UndefinedFn = src_E_UndefinedUserFunction
  /\ E_Redo = src_E_RedoFromStart /\ E_LineBufferOverflow = src_E_LineBufferOverflow /\ E_WhileWithoutWend = src_E_WhileWithoutWend
  /\ E_WendWithoutWhile = src_E_WendWithoutWhile /\ E_Internal = src_E_InternalError /\ E_DirectInFile = src_E_DirectStatementInFile.
Proof. exact error_codes_are_the_sources. Qed.
Print Assumptions C19_error_codes_are_the_sources.
