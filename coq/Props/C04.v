(* C04 -- what runs is always the program that LIST shows.
   The lemmas are in Proofs/Dirty.v (invariants carried through every opcode; the logic of the VM monad is Proofs/RMFrame.v).

   The model mirrors the implementation's mechanism: a `dirty` flag raised by every edit and lowered only by
   the recompilation at the start of the next direct line.  The theorems say that the mechanism is sound in
   the model, for every state and every opcode, with no bound on the history:
     (1) through execute(), through a numbered line, through INPUT / INKEY$ replies and through interrupt(),
         the flag never falls, and the stored lines are unchanged unless the flag is up afterwards;
     (2) statements other than DELETE, RENUM and NEW never alter the stored lines (nor the flag, nor the code);
     (3) a direct line entered with the flag up is compiled behind a fresh compilation of exactly the stored
         lines, and neither the old code, nor the value stack (pending RETURN / NEXT), nor the user functions,
         nor the CONT state of the previous compilation can influence what happens next;
     (4) (with Proofs/FreshRun.v, Proofs/RunForgets.v) the program compiled before enters a compilation of the stored lines
         through its DATA pointer only, so two machines with the flag up that hold the same listing agree, after the same
         direct line, on everything a run reads and does not itself reset; RUN does the same in both, for any number of
         instructions (C04_run_after_edit_is_fresh).
   What is NOT proved here: that a compilation of the listing behaves like typing the listing into a fresh
   interpreter (that is C01/C12 territory and is covered by the differential check of histories). *)
From BL Require Import Base.Prelude Mach.Val Lang.Token Mach.Compile Mach.Listing Mach.Runtime Proofs.RMFrame Proofs.Dirty.
Local Open Scope N_scope.

(* (1) execute(): any number of VM instructions, any state *)
Theorem C04_dirty_tracks_execute : forall O r n r' e, rt_execute O r n = Ok (r', e) ->
  (r_dirty r = true -> r_dirty r' = true) /\ (ls_lines (r_listing r') = ls_lines (r_listing r) \/ r_dirty r' = true).
Proof. intros O r n r' e E. exact (tk_execute O _ _ r n r' e (track_start r) E). Qed.
Print Assumptions C04_dirty_tracks_execute.

(* (1) a numbered line: insert, replace, delete -- deleting a line that does not exist included *)
Theorem C04_dirty_tracks_numbered_line : forall r l r', enter_indirect r l = Ok r' ->
  (r_dirty r = true -> r_dirty r' = true) /\ (ls_lines (r_listing r') = ls_lines (r_listing r) \/ r_dirty r' = true).
Proof. exact dirty_tracks_edits_indirect. Qed.
Print Assumptions C04_dirty_tracks_numbered_line.

Theorem C04_enter_indirect_keeps_dirty : forall r l r', enter_indirect r l = Ok r' -> r_dirty r = true -> r_dirty r' = true.
Proof. intros r l r' E. exact (proj1 (C04_dirty_tracks_numbered_line r l r' E)). Qed.
Print Assumptions C04_enter_indirect_keeps_dirty.

(* (1) replies to INPUT / INKEY$ and interrupts *)
Theorem C04_reply_neutral : forall O r s,
  Track (ls_lines (r_listing r)) (r_dirty r) (enter_input O r s) /\ Track (ls_lines (r_listing r)) (r_dirty r) (enter_inkey O r s).
Proof. intros O r s. split; [apply tk_enter_input | apply tk_enter_inkey]; apply track_start. Qed.
Print Assumptions C04_reply_neutral.

Theorem C04_interrupt_neutral : forall r, r_dirty (rt_interrupt r) = r_dirty r /\ r_listing (rt_interrupt r) = r_listing r.
Proof. exact dirty_tracks_edits_interrupt. Qed.
Print Assumptions C04_interrupt_neutral.

(* (2) one opcode, then a whole execute() call on code without editing opcodes *)
Theorem C04_noedit_statement_frame : forall O h op r, is_edit_op op = false ->
  let r' := fst (exec_op O h op r) in
  ls_lines (r_listing r') = ls_lines (r_listing r) /\ r_dirty r' = r_dirty r.
Proof.
  intros O h op r He.
  assert (Hk : Keep (ls_lines (r_listing r)) (r_dirty r) (l_ops (pg_link (r_prog r))) r) by (repeat split).
  pose proof (kp_exec_op O _ _ _ h op (f_equal negb He) r Hk) as H.
  cbn zeta. destruct (snd (exec_op O h op r)); destruct H as (H1 & H2 & _); split; assumption.
Qed.
Print Assumptions C04_noedit_statement_frame.

Theorem C04_noedit_program_frame : forall O r n r' e,
  forallb not_edit (l_ops (pg_link (r_prog r))) = true ->
  rt_execute O r n = Ok (r', e) ->
  ls_lines (r_listing r') = ls_lines (r_listing r) /\ r_dirty r' = r_dirty r
  /\ l_ops (pg_link (r_prog r')) = l_ops (pg_link (r_prog r)).
Proof. exact noedit_execute_frame. Qed.
Print Assumptions C04_noedit_program_frame.

(* (3) the direct line *)
Theorem C04_direct_keeps_lines : forall r l,
  ls_lines (r_listing (enter_direct r l)) = ls_lines (r_listing r) /\ r_dirty (enter_direct r l) = false.
Proof. exact direct_keeps_lines. Qed.
Print Assumptions C04_direct_keeps_lines.

Theorem C04_recompiled_from_listing : forall r l, r_dirty r = true ->
  enter_direct r l =
  enter_direct (set_cont (set_fns (set_stack_len (set_dirty (set_prog r (compile_listing (r_prog r) (ls_lines (r_listing r)))) false) [] 0) []) StStopped) l.
Proof. intros r l Hd. unfold enter_direct at 1. rewrite Hd. unfold enter_direct. cbn. reflexivity. Qed.
Print Assumptions C04_recompiled_from_listing.

Theorem C04_stale_code_discarded : forall r l p1, r_dirty r = true -> program_clear p1 = program_clear (r_prog r) ->
  enter_direct (set_prog r p1) l = enter_direct r l.
Proof. intros r l p1 Hd Hp. unfold enter_direct, compile_listing. cbn. rewrite Hd, Hp. reflexivity. Qed.
Print Assumptions C04_stale_code_discarded.

Theorem C04_stale_state_discarded : forall r l st sl fns c, r_dirty r = true ->
  enter_direct (set_cont (set_fns (set_stack_len r st sl) fns) c) l = enter_direct r l.
Proof. intros r l st sl fns c Hd. unfold enter_direct. cbn. rewrite Hd. reflexivity. Qed.
Print Assumptions C04_stale_state_discarded.

(* non-vacuity: a clean runtime in which a present line is deleted (flag goes up) and an absent one is "deleted" (nothing changes) *)
Example C04_witness :
  let r := set_listing rt_default (mkListing [(10, [TWord WEnd])] [] []) in
  r_dirty r = false
  /\ (forall r', enter_indirect r (Some 10, []) = Ok r' -> r_dirty r' = true /\ ls_lines (r_listing r') = [])
  /\ (forall r', enter_indirect r (Some 20, []) = Ok r' -> r_dirty r' = false /\ ls_lines (r_listing r') = ls_lines (r_listing r)).
Proof. cbn. repeat split; intros; match goal with H : Ok _ = Ok _ |- _ => injection H as <- end; reflexivity. Qed.

(* (4) what was compiled before does not matter *)
From BL Require Import Lang.Parse Proofs.Slicing Proofs.Swap Proofs.RunForgets Proofs.FreshRun.

(* compiling the stored lines: the previous program enters only through its DATA pointer, which the compiler carries along
   untouched (and through pending WHILE/WEND records, empty after every link) *)
Theorem C04_compile_forgets_previous_program : forall ls p p', l_whiles (pg_link p) = l_whiles (pg_link p') ->
  compile_listing p' ls = with_pdp (compile_listing p ls) (l_data_pos (pg_link p')).
Proof.
  intros ls p p' H. unfold compile_listing. rewrite (program_clear_any p p' H). generalize (program_clear p) as q. generalize (l_data_pos (pg_link p')) as d.
  induction ls as [| e r IH]; intros d q; cbn [fold_left]; [reflexivity |]. rewrite codegen_line_dp. apply IH.
Qed.
Print Assumptions C04_compile_forgets_previous_program.

(* two machines with the flag up that agree on the listing (and on prompt text, snapshots, trace mode, cursor column, entropy
   position and the dead continuation address) agree, after the same direct line, on everything a run can read that a run
   does not itself reset: compiled code, direct code, entry point, states *)
Theorem C04_edited_machines_agree : forall r r' l,
  r_dirty r = true -> r_dirty r' = true -> r_listing r = r_listing r' ->
  l_whiles (pg_link (r_prog r)) = l_whiles (pg_link (r_prog r')) ->
  r_prompt r = r_prompt r' -> r_snap r = r_snap r' -> r_tron r = r_tron r' -> r_col r = r_col r' -> r_ent r = r_ent r' ->
  r_cont_pc r = r_cont_pc r' ->
  static_eq (enter_direct r l) (enter_direct r' l).
Proof.
  intros r r' l Hd Hd' Hl Hw Hp Hs Ht Hc He Hcp. unfold enter_direct. rewrite Hd, Hd'.
  cbn [r_prog r_listing set_cont set_fns set_stack_len set_dirty set_prog].
  rewrite <- Hl. rewrite (C04_compile_forgets_previous_program (ls_lines (r_listing r)) (r_prog r) (r_prog r') Hw).
  rewrite codegen_line_dp, program_link_dp.
  (* the program compiled from the listing is the same on both sides up to the DATA pointer; what it is does not matter *)
  generalize (program_link (codegen_line (compile_listing (r_prog r) (ls_lines (r_listing r))) None (parse None (snd l)))).
  intros P. unfold static_eq. cbn. repeat split; try assumption; try reflexivity.
Qed.
Print Assumptions C04_edited_machines_agree.

(* RUN after any history of edits and runs = RUN in any other machine that holds the same listing: same states, same
   events, for any number of instructions *)
Theorem C04_run_after_edit_is_fresh : forall O r r' l n h,
  r_dirty r = true -> r_dirty r' = true -> r_listing r = r_listing r' ->
  l_whiles (pg_link (r_prog r)) = l_whiles (pg_link (r_prog r')) ->
  r_prompt r = r_prompt r' -> r_snap r = r_snap r' -> r_tron r = r_tron r' -> r_col r = r_col r' -> r_ent r = r_ent r' ->
  r_cont_pc r = r_cont_pc r' ->
  nthN (l_ops (pg_link (r_prog (enter_direct r l)))) (r_pc (enter_direct r l)) = Some OpClear ->
  prog_line_for (enter_direct r l) (r_pc (enter_direct r l)) = None ->
  exec_loop_x O (S n) h (enter_direct r l) = exec_loop_x O (S n) h (enter_direct r' l).
Proof.
  intros O r r' l n h Hd Hd' Hl Hw Hp Hs Ht Hc He Hcp Hop Hln.
  apply run_forgets; [apply C04_edited_machines_agree; assumption | exact Hop | right; exact Hln].
Qed.
Print Assumptions C04_run_after_edit_is_fresh.

(* the premises are met by a fresh machine and a used one holding the same edited listing, with RUN as the direct line *)
Theorem C04_fresh_run_applies :
  r_dirty edited_fresh = true /\ r_dirty edited_used = true /\ r_listing edited_fresh = r_listing edited_used
  /\ edited_fresh <> edited_used
  /\ nthN (l_ops (pg_link (r_prog (enter_direct edited_fresh run_line)))) (r_pc (enter_direct edited_fresh run_line)) = Some OpClear
  /\ prog_line_for (enter_direct edited_fresh run_line) (r_pc (enter_direct edited_fresh run_line)) = None.
Proof. exact fresh_run_premises. Qed.
Print Assumptions C04_fresh_run_applies.
