(* C20 -- branches resolve by line number, independent of program layout.
   Proved (Proofs/Reloc.v): appending a fragment places its code unchanged behind the existing code and leaves that code
   alone; linking patches every recorded reference whose symbol is defined with the address of that symbol, touches no
   other instruction, and changes only the address operand; a line symbol records the address at which the line starts.
   Proved (Proofs/SymSeg.v, Proofs/EmptyLine.v), for programs of any statements: the symbol of a line holds the address at
   which the code of the lines before it ends, whatever those lines are; inserting a line that generates no code, or giving
   the statements of one line as two consecutive lines, leaves instructions, DATA, open references and WHILE records as
   they were and adds one symbol, and the linked programs have the same instructions when nothing refers to the new line.
   Proved (Proofs/DirectShift.v, Proofs/SymLens.v): a direct line of address-free instructions closed by END runs the same
   whatever program is in memory; no instruction reads the symbol table, so a run that does not trace is the same under
   any symbol table.
   NOT proved: that running the program behaves the same in every layout and numbering, and independence of direct-mode
   placement beyond Proofs/DirectShift.v (decided by the C20 monitor, which runs every program in several layouts and
   numberings and compares transcripts modulo the line-number map). *)
From BL Require Import Base.Prelude Mach.Val Mach.Compile Proofs.Reloc.
Local Open Scope N_scope.

(* a line symbol always records the code address at which it was pushed, whatever precedes it *)
Theorem C20_line_symbol_address : forall l n l', l_push_symbol n l = (l', Ok tt) ->
  zassoc_get n (l_syms l') = Some (lenN (l_ops l), lenN (l_data l)) /\ l_ops l' = l_ops l.
Proof.
  intros l n l' H. unfold l_push_symbol in H. injection H as <-. split; [apply zassoc_get_set_same | reflexivity].
Qed.
Print Assumptions C20_line_symbol_address.

Theorem C20_append_places_code : forall f l l' i op, l_append f l = (l', Ok tt) -> nth_error (l_ops f) i = Some op ->
  nthN (l_ops l') (lenN (l_ops l) + N.of_nat i) = Some op.
Proof.
  intros f l l' i op H Hi. destruct (append_ops _ _ _ H) as [-> _]. unfold nthN, lenN.
  rewrite nth_error_app2 by lia. replace (N.to_nat (N.of_nat (length (l_ops l)) + N.of_nat i) - length (l_ops l))%nat with i by lia. exact Hi.
Qed.
Print Assumptions C20_append_places_code.

Theorem C20_append_keeps_code : forall f l l' a, l_append f l = (l', Ok tt) -> a < lenN (l_ops l) ->
  nthN (l_ops l') a = nthN (l_ops l) a.
Proof.
  intros f l l' a H Ha. destruct (append_ops _ _ _ H) as [-> _]. unfold nthN, lenN in *. apply nth_error_app1. lia.
Qed.
Print Assumptions C20_append_keeps_code.

Theorem C20_link_is_fold : forall l,
  let '(unl, werrs) := link_whiles_loop (l_whiles l) [] (l_syms l) (l_unlinked l) [] in
  l_ops (fst (link_link l)) = fst (fold_left (lstep (l_syms l)) unl (l_ops l, werrs)).
Proof. exact link_link_is_fold. Qed.
Print Assumptions C20_link_is_fold.

Theorem C20_link_patches : forall syms unl acc addr c sym dest op op',
  NoDup (map fst unl) -> In (addr, (c, sym)) unl ->
  zassoc_get sym syms = Some dest -> nthN (fst acc) addr = Some op -> patch_op op dest = Some op' ->
  nthN (fst (fold_left (lstep syms) unl acc)) addr = Some op'.
Proof. exact fold_patches. Qed.
Print Assumptions C20_link_patches.

Theorem C20_link_touches_nothing_else : forall syms unl acc a, ~ In a (map fst unl) ->
  nthN (fst (fold_left (lstep syms) unl acc)) a = nthN (fst acc) a.
Proof. exact fold_other. Qed.
Print Assumptions C20_link_touches_nothing_else.

Theorem C20_patch_changes_only_the_address : forall op dest op', patch_op op dest = Some op' ->
  (exists a, op = OpIfNot a /\ op' = OpIfNot (fst dest)) \/ (exists a, op = OpJump a /\ op' = OpJump (fst dest))
  \/ (exists a, op = OpLiteral (VRet a) /\ op' = OpLiteral (VRet (fst dest)))
  \/ (exists a, op = OpLiteral (VNext a) /\ op' = OpLiteral (VNext (fst dest)))
  \/ (exists a, op = OpRestore a /\ op' = OpRestore (snd dest)).
Proof.
  intros op dest op' H. destruct op; cbn in H; try discriminate; try (injection H as <-; eauto 10).
  destruct v; try discriminate; injection H as <-; eauto 10.
Qed.
Print Assumptions C20_patch_changes_only_the_address.

From BL Require Import Lang.Ast Proofs.Flow Proofs.DataSeg Proofs.SymSeg.

(* statement code only defines local (negative) symbols, so no amount of code appended after a line symbol can redefine it *)
Theorem C20_statement_symbols_local : forall s, snd (cg_stmt s) = [] ->
  (l_cur (snd (fst (cg_stmt s))) <= 0)%Z
  /\ forall k v, In (k, v) (l_syms (snd (fst (cg_stmt s)))) -> (l_cur (snd (fst (cg_stmt s))) <= k < 0)%Z.
Proof. intros s _. exact (cg_stmt_inv s). Qed.
Print Assumptions C20_statement_symbols_local.

(* in a program compiled without error, whatever lines come before and after line n (remarks, unreachable code, more or
   fewer statements), the symbol of n is the address at which the code of the lines before it ends, together with the
   number of DATA constants in those lines *)
Theorem C20_line_symbol_addresses : forall before n ss after p0,
  pg_errors (compile_from p0 (before ++ (n, ss) :: after)) = [] -> PInv (pg_link p0) -> ~ In n (map fst after) ->
  zassoc_get (Z.of_N n) (l_syms (pg_link (compile_from p0 (before ++ (n, ss) :: after))))
  = Some (lenN (l_ops (pg_link (compile_from p0 before))),
          lenN (l_data (pg_link p0) ++ flat_map (fun e => line_vals (snd e)) before)).
Proof. exact line_symbol_addresses. Qed.
Print Assumptions C20_line_symbol_addresses.

From BL Require Import Proofs.EmptyLine.

(* compile level, for programs of any statements: with the empty line n or without it the compiled program has the same
   instructions, DATA, open references and WHILE records, error lists and direct address; its symbol table has one entry more *)
Theorem C20_empty_line_compiles_away : forall n before after p0,
  pg_errors (compile_from p0 (before ++ (n, []) :: after)) = [] -> PInv (pg_link p0) ->
  zassoc_get (Z.of_N n) (l_syms (pg_link p0)) = None -> ~ In n (map fst before) -> ~ In n (map fst after) ->
  PS0 n (compile_from p0 (before ++ after)) (compile_from p0 (before ++ (n, []) :: after)).
Proof.
  intros n before after p0 H HP Hf Hb Ha. destruct (compile_from_mid before n [] after p0 H HP) as (H0 & HP1 & _ & E).
  rewrite E, compile_from_app. apply ps0_compile_from; [apply (empty_line_ps0 n) | exact Ha | exact (proj1 HP1) | right; rewrite <- E; exact H].
  rewrite (proj2 (compile_from_lines before p0 H0 HP) n Hb). exact Hf.
Qed.
Print Assumptions C20_empty_line_compiles_away.

(* link level: when nothing refers to line n and code follows it, the linked programs have the same instructions, the same DATA
   and the same direct-code address -- branches in the lines behind the inserted line are resolved to the same addresses *)
Theorem C20_empty_line_is_invisible : forall n before after p0,
  pg_errors (compile_from p0 (before ++ (n, []) :: after)) = [] -> PInv (pg_link p0) ->
  zassoc_get (Z.of_N n) (l_syms (pg_link p0)) = None -> ~ In n (map fst before) -> ~ In n (map fst after) ->
  let P := compile_from p0 (before ++ after) in
  let P' := compile_from p0 (before ++ (n, []) :: after) in
  pg_errors P = [] ->
  no_ref n (l_unlinked (pg_link P)) -> (forall k c a, ~ In (k, c, a, Z.of_N n) (l_whiles (pg_link P))) ->
  lenN (l_ops (pg_link (compile_from p0 before))) <> lenN (l_ops (pg_link P)) ->
  l_ops (pg_link (program_link P')) = l_ops (pg_link (program_link P))
  /\ l_data (pg_link (program_link P')) = l_data (pg_link (program_link P))
  /\ pg_direct (program_link P') = pg_direct (program_link P).
Proof.
  intros n before after p0 H HP Hf Hb Ha. cbn zeta. intros HPe Hnr Hnw Hfollow.
  pose proof (C20_empty_line_compiles_away n before after p0 H HP Hf Hb Ha) as HPS.
  apply (empty_line_links_away n _ _ HPS Hnr Hnw).
  intros v Hv Hin.
  (* the only entry for the new line in the longer table is the one the line put there: it holds the address at which the
     line starts *)
  assert (Hnone : zassoc_get (Z.of_N n) (l_syms (pg_link (compile_from p0 (before ++ after)))) = None).
  { rewrite (proj2 (compile_from_lines (before ++ after) p0 HPe HP) n); [exact Hf |].
    rewrite map_app. intros Hi. apply in_app_or in Hi. destruct Hi; [apply Hb | apply Ha]; assumption. }
  destruct HPS as (_ & _ & _ & (_ & _ & _ & _ & _ & _ & _ & Hi)). pose proof (ins_only n _ _ v Hi Hnone Hin) as Hget.
  rewrite (line_symbol_addresses before n [] after p0 H HP Ha) in Hget. injection Hget as <-. exact (Hfollow Hv).
Qed.
Print Assumptions C20_empty_line_is_invisible.

(* non-vacuity: 10 A=A+1:PRINT A; / 30 IF A<3 THEN 10 with an empty line 20 in between; the program has an open reference *)
Example C20_empty_line_applies :
  pg_errors (compile_from el_p0 (el_before ++ (20, []) :: el_after)) = [] /\ PInv (pg_link el_p0)
  /\ zassoc_get (Z.of_N 20) (l_syms (pg_link el_p0)) = None /\ ~ In 20 (map fst el_before) /\ ~ In 20 (map fst el_after)
  /\ pg_errors (compile_from el_p0 (el_before ++ el_after)) = []
  /\ no_ref 20 (l_unlinked (pg_link (compile_from el_p0 (el_before ++ el_after))))
  /\ (forall k c a, ~ In (k, c, a, Z.of_N 20) (l_whiles (pg_link (compile_from el_p0 (el_before ++ el_after)))))
  /\ lenN (l_ops (pg_link (compile_from el_p0 el_before))) <> lenN (l_ops (pg_link (compile_from el_p0 (el_before ++ el_after))))
  /\ l_unlinked (pg_link (compile_from el_p0 (el_before ++ el_after))) <> [].
Proof. exact empty_line_premises. Qed.

(* splitting a line: the statements of one line given as two consecutive lines (Proofs/EmptyLine.v) *)
Theorem C20_split_line_in_program : forall n before m s1 s2 after p0,
  pg_errors (compile_from p0 (before ++ (m, s1 ++ s2) :: after)) = [] -> PInv (pg_link p0) ->
  zassoc_get (Z.of_N n) (l_syms (pg_link (codegen_line (compile_from p0 before) (Some m) (Ok s1)))) = None -> ~ In n (map fst after) ->
  PS0 n (compile_from p0 (before ++ (m, s1 ++ s2) :: after)) (compile_from p0 (before ++ (m, s1) :: (n, s2) :: after)).
Proof.
  intros n before m s1 s2 after p0 H HP Hfresh Ha. destruct (compile_from_mid before m (s1 ++ s2) after p0 H HP) as (_ & HP1 & H1 & E).
  rewrite E, compile_from_app, !compile_from_cons.
  apply (ps0_compile_from n); [exact (split_line_compiles_same n _ m s1 s2 H1 (proj1 HP1) Hfresh) | exact Ha | | left; rewrite <- E; exact H].
  exact (proj1 (proj1 (codegen_line_symbol _ m (s1 ++ s2) H1 HP1))).
Qed.
Print Assumptions C20_split_line_in_program.

(* what the relation gives at link time, whichever layout change produced it: same instructions, DATA and direct-code address,
   when nothing refers to the new line and it does not start at the end of the code *)
Theorem C20_new_line_number_links_away : forall n p p', PS0 n p p' ->
  no_ref n (l_unlinked (pg_link p)) -> (forall k c a, ~ In (k, c, a, Z.of_N n) (l_whiles (pg_link p))) ->
  (forall v, fst v = lenN (l_ops (pg_link p)) -> ~ In (Z.of_N n, v) (l_syms (pg_link p'))) ->
  l_ops (pg_link (program_link p')) = l_ops (pg_link (program_link p))
  /\ l_data (pg_link (program_link p')) = l_data (pg_link (program_link p))
  /\ pg_direct (program_link p') = pg_direct (program_link p).
Proof. exact empty_line_links_away. Qed.
Print Assumptions C20_new_line_number_links_away.

From BL Require Import Mach.Listing Mach.Runtime Proofs.DirectShift.
From BL Require Proofs.RMFrame.

(* an address-free instruction (what LET, PRINT, DIM, SWAP, ERASE, DEFtype, MID$=, CLS compile to) gives the same result on the
   machine with another program and listing, the direct code d places further on, another saved address and trace marker *)
Theorem C20_instruction_ignores_the_program : forall O h op, address_free op = true -> forall d PL c t r,
  exists c' t', exec_op O h op (Sh d PL c t r) = (Sh d PL c' t' (fst (exec_op O h op r)), snd (exec_op O h op r)).
Proof. exact shifted_exec_op. Qed.
Print Assumptions C20_instruction_ignores_the_program.

(* the fetch loop on a direct line of such instructions closed by END: same events, same final machine up to those fields *)
Theorem C20_direct_line_ignores_the_program : forall O fuel h d PL r c t, direct_safe O d PL fuel h r ->
  exists c' t', exec_loop O fuel h (Sh d PL c t r) = (Sh d PL c' t' (fst (exec_loop O fuel h r)), snd (exec_loop O fuel h r)).
Proof.
  intros O fuel h d P r c t Hs.
  apply (RMFrame.sim_exec_loop (Sh d P) O (direct_safe O d P)); [reflexivity | clear | exact Hs].
  intros f h r (Htron & op & Hop & HopP & Hcase). split; [exact Htron |]. split.
  - (* the other program holds the same instruction d places further on *)
    intros c t. rewrite !RMFrame.one_op_eq, Hop.
    change (r_pc (Sh d P c t r)) with (r_pc r + d). change (l_ops (pg_link (r_prog (Sh d P c t r)))) with (l_ops (pg_link (fst P))).
    rewrite HopP. replace (r_pc r + d + 1) with (r_pc r + 1 + d) by lia. rewrite sh_set_pc.
    destruct Hcase as [-> | [Hfree _]]; [| exact (shifted_exec_op O h op Hfree d P c t _)].
    cbn [exec_op]. unfold rbind. destruct (shifted_end d P c t (set_pc r (r_pc r + 1))) as [c1 [t1 E]]. rewrite E.
    destruct (do_end (set_pc r (r_pc r + 1))) as [r2 [ev | e | |]]; exists c1, t1; reflexivity.
  - intros r2 E2. rewrite RMFrame.one_op_eq, Hop in E2.
    destruct Hcase as [-> | [_ Hnext]]; [| rewrite E2 in Hnext; exact Hnext].
    cbn [exec_op] in E2. unfold rbind in E2. destruct (do_end (set_pc r (r_pc r + 1))) as [r3 [ev | e | |]]; discriminate.
Qed.
Print Assumptions C20_direct_line_ignores_the_program.

(* non-vacuity: the line A=5:PRINT A*2; typed into an empty machine and into one holding a program -- the second machine is the
   first one seen through the lens, and the premise holds for the first instructions *)
Example C20_direct_line_applies :
  let d := r_entry ds_loaded - r_entry ds_empty in
  let PL := (r_prog ds_loaded, r_listing ds_loaded) in
  0 < d /\ Sh d PL (r_cont_pc ds_loaded) (r_tr ds_loaded) ds_empty = ds_loaded
  /\ direct_safe Drv.Driver.dummy_oracle d PL 3 false ds_empty.
Proof. exact ds_premises. Qed.

From BL Require Proofs.SymLens.

(* every instruction, on a machine whose program carries another symbol table (and another trace marker): same result, same
   machine; and the fetch loop, for as long as the machine does not trace: same events, same final machine.  With
   C20_empty_line_is_invisible (same instructions and DATA, other symbol table) this is why an inserted code-less line can
   change nothing but the line numbers in messages and trace output. *)
Theorem C20_instruction_ignores_symbols : forall O h op c t syms r,
  exists c' t', exec_op O h op (SymLens.L c t syms r) = (SymLens.L c' t' syms (fst (exec_op O h op r)), snd (exec_op O h op r)).
Proof. intros O h op c t syms. exact (SymLens.lensed_exec_op_all O h op syms c t). Qed.
Print Assumptions C20_instruction_ignores_symbols.

Theorem C20_run_ignores_symbols : forall O fuel h r t syms, SymLens.quiet_run O fuel h r ->
  exists t', exec_loop O fuel h (SymLens.L 0 t syms r) = (SymLens.L 0 t' syms (fst (exec_loop O fuel h r)), snd (exec_loop O fuel h r)).
Proof.
  intros O fuel h r t syms Hq.
  destruct (RMFrame.sim_exec_loop (fun c t => SymLens.L c t syms) O (SymLens.quiet_run O)
              (fun _ _ _ => eq_refl)) with (fuel := fuel) (h := h) (r := r) (c := 0) (t := t) as [c' [t' E]]; [clear | exact Hq | exists t'; exact E].
  intros f h r [Htron Hnext]. split; [exact Htron |]. split.
  - intros c t. rewrite !RMFrame.one_op_eq.
    change (r_pc (SymLens.L c t syms r)) with (r_pc r). change (l_ops (pg_link (r_prog (SymLens.L c t syms r)))) with (l_ops (pg_link (r_prog r))).
    destruct (nthN (l_ops (pg_link (r_prog r))) (r_pc r)) as [op |]; [| exists c, t; reflexivity].
    exact (SymLens.lensed_exec_op_all O h op syms c t (set_pc r (r_pc r + 1))).
  - intros r2 E2. rewrite E2 in Hnext. exact Hnext.
Qed.
Print Assumptions C20_run_ignores_symbols.
