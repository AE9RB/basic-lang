(* C07 -- string operations work on characters.
   The longer proofs are in Proofs/Strings.v and Proofs/Strings2.v.  A string value is a list of Unicode scalar values, so no model
   function can split a character; what is proved is that each function returns exactly the documented piece,
   counted in characters.  That the crate's byte-offset slicing agrees is the correspondence check's job. *)
From BL Require Import Base.Prelude Base.Floats Mach.Val Mach.Func Mach.Compile Mach.Runtime Proofs.Strings.
Local Open Scope N_scope.

Theorem C07_len_counts_characters : forall s, lenN s <= 32767 -> fn_len (VStr s) = Ok (VInt (Z.of_N (lenN s))).
Proof. intros s H. unfold fn_len, val_of_len. cbn. destruct (N.leb_spec (lenN s) 32767); [reflexivity | lia]. Qed.
Print Assumptions C07_len_counts_characters.

Theorem C07_left : forall s n, (0 <= n)%Z -> to_usize (VInt n) = Ok n ->
  exists l, fn_left (VStr s) (VInt n) = Ok (VStr l) /\ lenN l = N.min (Z.to_N n) (lenN s) /\ exists t, s = l ++ t.
Proof.
  intros s n Hn Hu. unfold fn_left. rewrite Hu. cbn. eexists. split; [reflexivity |]. split; [apply lenN_firstn |].
  exists (skipnN (Z.to_N n) s). symmetry. apply firstn_skipn_N.
Qed.
Print Assumptions C07_left.

Theorem C07_right : forall s n, (0 <= n)%Z -> to_usize (VInt n) = Ok n ->
  exists r, fn_right (VStr s) (VInt n) = Ok (VStr r) /\ lenN r = N.min (Z.to_N n) (lenN s) /\ exists t, s = t ++ r.
Proof.
  intros s n Hn Hu. unfold fn_right. rewrite Hu. cbn [bind]. destruct (Z.eqb_spec n 0) as [-> | Hne].
  - exists []. split; [reflexivity |]. split; [unfold lenN; cbn; lia |]. exists s. rewrite app_nil_r. reflexivity.
  - cbn. eexists. split; [reflexivity |]. split; [rewrite lenN_skipn; lia |].
    exists (firstnN (lenN s - Z.to_N n) s). symmetry. apply firstn_skipn_N.
Qed.
Print Assumptions C07_right.

Theorem C07_mid : forall s p l, (1 <= p)%Z -> to_usize (VInt p) = Ok p -> to_u16 (VInt l) = Ok l -> (0 <= l)%Z ->
  exists m, fn_mid [VStr s; VInt p; VInt l] = Ok (VStr m)
    /\ lenN m = N.min (Z.to_N l) (lenN s - (Z.to_N p - 1))
    /\ exists a b, s = a ++ m ++ b /\ lenN a = N.min (Z.to_N p - 1) (lenN s).
Proof.
  intros s p l Hp Hu Hl Hl0. unfold fn_mid. rewrite Hl, Hu. cbn [bind]. destruct (Z.eqb_spec p 0); [lia |]. cbn.
  eexists. split; [reflexivity |]. split; [rewrite lenN_firstn, lenN_skipn; f_equal; lia |].
  exists (firstnN (Z.to_N (p - 1)) s), (skipnN (Z.to_N l) (skipnN (Z.to_N (p - 1)) s)).
  split; [rewrite firstn_skipn_N, firstn_skipn_N; reflexivity | rewrite lenN_firstn; f_equal; lia].
Qed.
Print Assumptions C07_mid.

(* INSTR: one plus the least character index at which the pattern occurs; 0 if nowhere *)
Theorem C07_find_least : forall p s i, find_sub p s = Some i <->
  (starts_with p (skipnN i s) = true /\ i <= lenN s /\ forall j, j < i -> starts_with p (skipnN j s) = false).
Proof.
  intros p s i. split; [apply find_sub_some |]. intros (H1 & H2 & H3).
  destruct (find_sub p s) as [k |] eqn:E; [| rewrite (find_sub_none p s E i) in H1; discriminate].
  destruct (find_sub_some p s k E) as (K1 & _ & K3). f_equal.
  destruct (N.lt_trichotomy i k) as [Hlt | [Heq | Hgt]]; [rewrite (K3 i Hlt) in H1; discriminate | auto | rewrite (H3 k Hgt) in K1; discriminate].
Qed.
Print Assumptions C07_find_least.

Theorem C07_instr : forall s p, s <> [] ->
  fn_instr [VStr s; VStr p] = match find_sub p s with Some i => val_of_len (i + 1) | None => Ok (VInt 0) end.
Proof.
  intros s p Hs. unfold fn_instr. cbn.
  destruct (Z.leb_spec (Z.of_N (lenN s)) 0) as [H | H]; [| reflexivity].
  exfalso. destruct s; [contradiction | rewrite lenN_cons in H; lia].
Qed.
Print Assumptions C07_instr.

(* MID$ assignment never changes the length of the target and leaves everything before the position alone *)
Theorem C07_letmid_length : forall orig ins index pos len, length (letmid_loop orig ins index pos len) = length orig.
Proof.
  induction orig as [| ch r IH]; intros ins index pos len; cbn [letmid_loop]; [reflexivity |].
  destruct ((pos <=? index + 1) && (0 <? len)); [destruct ins |]; cbn [length]; rewrite IH; reflexivity.
Qed.
Print Assumptions C07_letmid_length.

Theorem C07_letmid_prefix : forall orig ins index pos len, index + lenN orig < pos -> letmid_loop orig ins index pos len = orig.
Proof.
  induction orig as [| ch r IH]; intros ins index pos len H; cbn [letmid_loop]; [reflexivity |].
  rewrite lenN_cons in H. destruct (N.leb_spec pos (index + 1)); [lia |]. cbn. f_equal. apply IH. lia.
Qed.
Print Assumptions C07_letmid_prefix.

Theorem C07_asc_chr : forall n, (0 <= n <= 32767)%Z -> is_scalar_value n = true -> to_u32 (VInt n) = Ok n ->
  exists s, fn_chr (VInt n) = Ok (VStr s) /\ lenN s = 1 /\ fn_asc (VStr s) = Ok (VInt n).
Proof.
  intros n Hn Hs Hu. unfold fn_chr. rewrite Hu. cbn. rewrite Hs. eexists. split; [reflexivity |]. split; [reflexivity |].
  unfold fn_asc. cbn. rewrite Z2N.id by lia. destruct (Z.leb_spec n 32767); [reflexivity | lia].
Qed.
Print Assumptions C07_asc_chr.

(* non-vacuity on non-ASCII text: a, e-acute, CJK, emoji, b *)
Example C07_witness :
  let s := [97; 233; 26085; 128512; 98] in
  fn_mid [VStr s; VInt 2; VInt 3] = Ok (VStr [233; 26085; 128512])
  /\ fn_instr [VStr s; VStr [26085]] = Ok (VInt 3) /\ fn_len (VStr s) = Ok (VInt 5).
Proof. vm_compute. repeat split; reflexivity. Qed.

(* the limit, concatenation, comparison, STRING$, HEX$ / OCT$ (Proofs/Strings2.v) *)
From BL Require Import Mach.Ops Mach.Var Proofs.Vars Proofs.Strings2.

(* the 255-character limit sits where a string is stored *)
Theorem C07_string_store_limit : forall s, convert_to TStr (VStr s) = if 255 <? lenN s then err E_StringTooLong else Ok (VStr s).
Proof. reflexivity. Qed.
Print Assumptions C07_string_store_limit.

Theorem C07_concat_is_append : forall a b, op_sum (VStr a) (VStr b) = Ok (VStr (a ++ b)).
Proof. reflexivity. Qed.
Print Assumptions C07_concat_is_append.

(* comparison is lexicographic on character codes; a proper prefix is smaller; equality is equality of the sequences *)
Theorem C07_less_is_lexicographic : forall a b, str_ltb a b = true <-> lex_lt a b.
Proof.
  induction a as [| x a IH]; intros [| y b]; cbn [str_ltb]; split; intros H.
  - discriminate.
  - inversion H.
  - apply lex_nil.
  - reflexivity.
  - discriminate.
  - inversion H.
  - destruct (N.ltb_spec x y); [apply lex_head; assumption |]. destruct (N.ltb_spec y x); [discriminate |].
    assert (x = y) by lia. subst y. apply lex_tail. apply IH. exact H.
  - inversion H as [| ? ? ? ? Hxy | ? ? ? Hab]; subst.
    + destruct (N.ltb_spec x y); [reflexivity | lia].
    + destruct (N.ltb_spec y y); [lia |]. apply IH. exact Hab.
Qed.
Print Assumptions C07_less_is_lexicographic.

Theorem C07_string_less : forall a b, op_less (VStr a) (VStr b) = Ok (if str_ltb a b then VInt (-1) else VInt 0).
Proof. intros a b. unfold op_less, less_bool, cmp_bool. cbn. destruct (str_ltb a b); reflexivity. Qed.
Print Assumptions C07_string_less.

Theorem C07_string_equal : forall a b, op_equal (VStr a) (VStr b) = Ok (if str_eqb a b then VInt (-1) else VInt 0).
Proof. intros a b. unfold op_equal, equal_bool. cbn. destruct (str_eqb a b); reflexivity. Qed.
Print Assumptions C07_string_equal.

Theorem C07_equal_is_equality : forall a b, str_eqb a b = true <-> a = b.
Proof. exact str_eqb_eq. Qed.
Print Assumptions C07_equal_is_equality.

Theorem C07_string_fn : forall n c rest, (0 <= n <= 255)%Z -> fn_string (VInt n) (VStr (c :: rest)) = Ok (VStr (repeatN c (Z.to_N n))).
Proof.
  intros n c rest Hn. rewrite string_spec, to_usize_int by lia. destruct (Z.ltb_spec 255 n); [lia | reflexivity].
Qed.
Print Assumptions C07_string_fn.

Theorem C07_string_fn_too_long : forall n cv, (255 < n <= 32767)%Z -> fn_string (VInt n) cv = err E_Overflow.
Proof.
  intros n cv Hn. unfold fn_string. rewrite to_usize_int by lia. cbn [bind]. destruct (Z.ltb_spec 255 n); [reflexivity | lia].
Qed.
Print Assumptions C07_string_fn_too_long.

(* HEX$ and OCT$ produce digits that the interpreter's own radix reader (the one behind &H.. and &.. literals and VAL) turns
   back into the 16-bit pattern of the argument *)
Theorem C07_hex_reads_back : forall n, (-32768 <= n <= 32767)%Z ->
  exists s, fn_hex (VInt n) = Ok (VStr s) /\ radix_digits 16 s 0 = Some (u16_of_i16 n).
Proof. intros n _. eexists. split; [reflexivity |]. apply radix_reads_back; [lia | apply u16_lt]. Qed.
Print Assumptions C07_hex_reads_back.

Theorem C07_oct_reads_back : forall n, (-32768 <= n <= 32767)%Z ->
  exists s, fn_oct (VInt n) = Ok (VStr s) /\ radix_digits 8 s 0 = Some (u16_of_i16 n).
Proof. intros n _. eexists. split; [reflexivity |]. apply radix_reads_back; [lia | apply u16_lt]. Qed.
Print Assumptions C07_oct_reads_back.
