(* C11 -- PRINT layout.
   Proved: the cursor-column bookkeeping (characters since the last newline, whatever is printed), the zone and
   TAB arithmetic, that a number carries one trailing blank and starts with a blank or a minus sign, and that a
   non-negative integer is printed as its decimal digits (which read back).  NOT proved: that fmt_val prints the shortest
   decimal that reads back (Base/Decimal.v is validated against the crate by the correspondence check over
   hundreds of thousands of bit patterns, and by the C11 monitor which re-reads every printed number). *)
From BL Require Import Base.Prelude Mach.Val Mach.Func Mach.Compile Mach.Runtime.
From BL Require Proofs.RMFrame.
From BL Require Proofs.DecN.
Local Open Scope Z_scope.

Theorem C11_zone : forall col, exists k,
  fn_tab col (VInt (-14)) = Ok (VStr (repeatN c_space k)) /\ (1 <= Z.of_N k <= 14) /\ (Z.of_N col + Z.of_N k) mod 14 = 0.
Proof.
  intros col. exists (Z.to_N (14 - Z.of_N col mod 14)).
  pose proof (Z.mod_pos_bound (Z.of_N col) 14 ltac:(lia)) as Hm.
  split; [| split].
  - unfold fn_tab, to_i16, bind. cbn. reflexivity.
  - rewrite Z2N.id by lia. lia.
  - rewrite Z2N.id by lia.
    replace (Z.of_N col + (14 - Z.of_N col mod 14)) with ((Z.of_N col - Z.of_N col mod 14) + 1 * 14) by lia.
    rewrite Z.mod_add by lia.
    rewrite Zminus_mod, Zmod_mod, Z.sub_diag. reflexivity.
Qed.
Print Assumptions C11_zone.

Theorem C11_tab : forall col n, 0 <= n <= 255 ->
  fn_tab col (VInt n) = Ok (VStr (repeatN c_space (Z.to_N (if Z.of_N col <? n then n - Z.of_N col else 0)))).
Proof.
  intros col n H. unfold fn_tab, to_i16, bind.
  destruct (Z.ltb_spec n (-255)); [lia |].
  destruct (Z.ltb_spec 255 n); [lia |]. cbn [orb].
  destruct (Z.ltb_spec n 0); [lia |]. reflexivity.
Qed.
Print Assumptions C11_tab.

Theorem C11_column_no_newline : forall s c, ~ In 10%N s -> advance_col c s = (c + lenN s)%N.
Proof.
  induction s as [| ch r IH]; intros c H; [unfold lenN; cbn; lia |].
  change (advance_col c (ch :: r)) with (advance_col (if (ch =? 10)%N then 0%N else (c + 1)%N) r).
  destruct (N.eqb_spec ch 10) as [-> | _]; [exfalso; apply H; left; reflexivity |].
  rewrite IH by (intros Hin; apply H; right; exact Hin). unfold lenN. cbn [length]. lia.
Qed.
Print Assumptions C11_column_no_newline.

Theorem C11_column_after_newline : forall a b c, advance_col c (a ++ 10%N :: b) = advance_col 0 b.
Proof. intros a b c. rewrite RMFrame.advance_col_app. reflexivity. Qed.
Print Assumptions C11_column_after_newline.

Theorem C11_column_is_chars_since_newline : forall a b c, ~ In 10%N b -> advance_col c (a ++ 10%N :: b) = lenN b.
Proof.
 intros a b c H. rewrite C11_column_after_newline, C11_column_no_newline by exact H. lia.
Qed.
Print Assumptions C11_column_is_chars_since_newline.

Theorem C11_column_across_items : forall c a b, advance_col c (a ++ b) = advance_col (advance_col c a) b.
Proof. exact RMFrame.advance_col_app. Qed.
Print Assumptions C11_column_across_items.

Theorem C11_print_moves_column : forall r s rest, r_stack r = VStr s :: rest ->
  let '(r', x) := do_print r in
  x = Ok (EvPrint s) /\ r_col r' = advance_col (r_col r) s /\ r_stack r' = rest.
Proof.
 intros r s rest H. unfold do_print, rbind, pop. rewrite H. cbn. repeat split; reflexivity.
Qed.
Print Assumptions C11_print_moves_column.

Theorem C11_number_trailing_blank : forall r v rest, r_stack r = v :: rest ->
  (match v with VStr _ => False | _ => True end) ->
  snd (do_print r) = Ok (EvPrint (fmt_val v ++ [c_space])).
Proof.
 intros r v rest H Hv. unfold do_print, rbind, pop. rewrite H. destruct v; try contradiction; reflexivity.
Qed.
Print Assumptions C11_number_trailing_blank.

Theorem C11_number_leading_sign : forall v, (match v with VInt _ | VSng _ | VDbl _ => True | _ => False end) ->
  exists c rest, fmt_val v = c :: rest /\ (c = 32%N \/ c = 45%N).
Proof.
  assert (Hlead : forall s : str, exists c rest,
            (match s with c :: _ => if (c =? 45)%N then s else c_space :: s | [] => [c_space] end) = c :: rest /\ (c = 32%N \/ c = 45%N)).
  { intros s. destruct s as [| c r]; [eexists; eexists; split; [reflexivity | left; reflexivity] |].
    destruct (N.eqb_spec c 45) as [-> | _]; eexists; eexists; (split; [reflexivity |]); [right | left]; reflexivity. }
  intros v Hv. destruct v; try contradiction; cbn [fmt_val]; apply Hlead.
Qed.
Print Assumptions C11_number_leading_sign.

Theorem C11_integer_format : forall n, 0 <= n ->
  fmt_val (VInt n) = 32%N :: dec_of_N (Z.to_N n) /\ parse_udec (dec_of_N (Z.to_N n)) = Some (Z.to_N n).
Proof.
  intros n Hn. split; [| apply Proofs.DecN.parse_dec_of_N].
  cbn [fmt_val]. unfold dec_of_Z. destruct (Z.ltb_spec n 0); [lia |].
  replace (Z.abs_N n) with (Z.to_N n) by lia.
  pose proof (Proofs.DecN.dec_of_N_digits (Z.to_N n)) as Hd.
  destruct (dec_of_N (Z.to_N n)) as [| c r] eqn:E; [reflexivity |].
  cbn in Hd. apply andb_prop in Hd. destruct Hd as [Hc _]. unfold is_digit in Hc. apply andb_prop in Hc. destruct Hc as [H1 H2].
  apply N.leb_le in H1, H2. destruct (N.eqb_spec c 45); [lia | reflexivity].
Qed.
Print Assumptions C11_integer_format.
