(* C08 -- 16-bit Integer arithmetic is always checked.
   + - * and negation are one range check (chk); the lemmas about MOD and ^ are in Proofs/Int16.v, the argument about \ stands here. *)
From BL Require Import Base.Prelude Base.Floats Mach.Val Mach.Ops Proofs.Int16.
Local Open Scope Z_scope.

(* non-vacuity: the boundary operands satisfy the hypotheses *)
Example C08_operands_exist : I16 (-32768) /\ I16 32767 /\ ~ I16 (32767 + 1) /\ ~ I16 (- (-32768)).
Proof. unfold I16. lia. Qed.

Theorem C08_add : forall a b,
  (I16 (a + b) /\ op_sum (VInt a) (VInt b) = Ok (VInt (a + b)))
  \/ (~ I16 (a + b) /\ op_sum (VInt a) (VInt b) = err E_Overflow).
Proof. intros a b. exact (chk_spec (a + b)). Qed.
Print Assumptions C08_add.

Theorem C08_sub : forall a b,
  (I16 (a - b) /\ op_subtract (VInt a) (VInt b) = Ok (VInt (a - b)))
  \/ (~ I16 (a - b) /\ op_subtract (VInt a) (VInt b) = err E_Overflow).
Proof. intros a b. exact (chk_spec (a - b)). Qed.
Print Assumptions C08_sub.

Theorem C08_mul : forall a b,
  (I16 (a * b) /\ op_multiply (VInt a) (VInt b) = Ok (VInt (a * b)))
  \/ (~ I16 (a * b) /\ op_multiply (VInt a) (VInt b) = err E_Overflow).
Proof. intros a b. exact (chk_spec (a * b)). Qed.
Print Assumptions C08_mul.

Theorem C08_neg : forall a,
  (I16 (- a) /\ op_negate (VInt a) = Ok (VInt (- a)))
  \/ (~ I16 (- a) /\ op_negate (VInt a) = err E_Overflow).
Proof. intros a. exact (chk_spec (- a)). Qed.
Print Assumptions C08_neg.

Theorem C08_divint : forall a b,
  (b = 0 /\ op_divint (VInt a) (VInt b) = err E_DivByZero)
  \/ (b <> 0 /\ I16 (Z.quot a b) /\ op_divint (VInt a) (VInt b) = Ok (VInt (Z.quot a b)))
  \/ (b <> 0 /\ ~ I16 (Z.quot a b) /\ op_divint (VInt a) (VInt b) = err E_Overflow).
Proof.
  intros a b. unfold op_divint. cbn [to_i16 bind].
  destruct (Z.eqb_spec b 0) as [Hb | Hb]; [left; split; [exact Hb | reflexivity] | right].
  destruct (chk_spec (Z.quot a b)) as [H | H]; [left | right]; exact (conj Hb H).
Qed.
Print Assumptions C08_divint.

(* the only out-of-range quotient of two Integers is -32768 \ -1 *)
Theorem C08_divint_overflow_only_at_min : forall a b, I16 a -> I16 b -> b <> 0 ->
  I16 (Z.quot a b) \/ (a = -32768 /\ b = -1).
Proof.
  intros a b.
  intros Ha Hb Hnz. unfold I16 in *.
  destruct (Z.eq_dec b (-1)) as [-> | Hb1].
  - destruct (Z.eq_dec a (-32768)) as [-> | Ha1]; [right; split; reflexivity |].
    left. replace (Z.quot a (-1)) with (- a).
    + lia.
    + change (-1) with (- (1)). rewrite Z.quot_opp_r by lia. rewrite Z.quot_1_r. reflexivity.
  - left.
    assert (Habs : Z.abs (Z.quot a b) <= Z.abs a).
    { rewrite <- (Z.quot_abs a b) by exact Hnz.
      apply Z.quot_le_upper_bound; [lia | ].
      nia. }
    destruct (Z.eq_dec b 1) as [-> | Hb2].
    + rewrite Z.quot_1_r. lia.
    + assert (2 * Z.abs (Z.quot a b) <= Z.abs a).
      { rewrite <- (Z.quot_abs a b) by exact Hnz.
        pose proof (Z.mul_quot_le (Z.abs a) (Z.abs b) ltac:(lia) ltac:(lia)).
        assert (0 <= Z.quot (Z.abs a) (Z.abs b)) by (apply Z.quot_pos; lia).
        nia. }
      lia.
Qed.
Print Assumptions C08_divint_overflow_only_at_min.

Theorem C08_mod : forall a b,
  (b = 0 /\ op_remainder (VInt a) (VInt b) = err E_DivByZero)
  \/ (b <> 0 /\ op_remainder (VInt a) (VInt b) = Ok (VInt (Z.rem a b))).
Proof.
  intros a b. unfold op_remainder. cbn [to_i16 bind].
  destruct (Z.eqb_spec b 0) as [Hb | Hb]; [left | right]; (split; [exact Hb | reflexivity]).
Qed.
Print Assumptions C08_mod.

Theorem C08_mod_in_range : forall a b, I16 a -> b <> 0 -> I16 (Z.rem a b).
Proof. exact rem_range. Qed.
Print Assumptions C08_mod_in_range.

Theorem C08_pow : forall (O : oracle) a b, I16 a -> 0 <= b ->
  (I16 (a ^ b) /\ op_power O (VInt a) (VInt b) = Ok (VInt (a ^ b)))
  \/ (~ I16 (a ^ b) /\ op_power O (VInt a) (VInt b) = err E_Overflow).
Proof.
  intros O a b _ Hb. unfold op_power. destruct (Z.leb_spec 0 b) as [_ | Hneg]; [| lia].
  rewrite (checked_pow_spec a b Hb). pose proof (chk_spec (a ^ b)) as Hc. unfold chk in Hc.
  destruct (in_i16 (a ^ b)); exact Hc.
Qed.
Print Assumptions C08_pow.

Theorem C08_closed : forall a b v, I16 a -> I16 b ->
  (op_sum (VInt a) (VInt b) = Ok v \/ op_subtract (VInt a) (VInt b) = Ok v
   \/ op_multiply (VInt a) (VInt b) = Ok v \/ op_divint (VInt a) (VInt b) = Ok v
   \/ op_remainder (VInt a) (VInt b) = Ok v) ->
  exists z, v = VInt z /\ I16 z.
Proof.
  intros a b v Ha Hb [H | [H | [H | [H | H]]]]; try (eexists; exact (chk_ok _ _ H)).
  - unfold op_divint in H. cbn [to_i16 bind] in H. destruct (b =? 0); [discriminate | eexists; exact (chk_ok _ _ H)].
  - unfold op_remainder in H. cbn [to_i16 bind] in H. destruct (Z.eqb_spec b 0) as [| Hnz]; [discriminate |].
    injection H as <-. exists (Z.rem a b). split; [reflexivity | apply rem_range; assumption].
Qed.
Print Assumptions C08_closed.

(* conversions from floating point (Proofs/FloatToInt.v): floor plus a range check, for every bit pattern *)
From BL Require Import Proofs.FloatToInt.
From Flocq Require Import IEEE754.Binary IEEE754.Bits.

(* the general form used for Integer, line-number and byte-sized conversions: bounds below 2^24 *)
Theorem C08_single_conversion : forall b lo hi cast, Z.abs lo <= 16777215 -> Z.abs hi <= 16777215 ->
  float_to_int32 b lo hi cast =
  (if Binary.is_finite 24 128 (b32_of_bits b) && (lo <=? floor_of (b32_of_bits b)) && (floor_of (b32_of_bits b) <=? hi)
   then Ok (Z.min (floor_of (b32_of_bits b)) cast) else err E_Overflow).
Proof. exact float_to_int32_spec. Qed.
Print Assumptions C08_single_conversion.

Theorem C08_double_conversion : forall b lo hi cast, Z.abs lo <= 16777215 -> Z.abs hi <= 16777215 ->
  float_to_int64 b lo hi cast =
  (if Binary.is_finite 53 1024 (b64_of_bits b) && (lo <=? floor_of64 (b64_of_bits b)) && (floor_of64 (b64_of_bits b) <=? hi)
   then Ok (Z.min (floor_of64 (b64_of_bits b)) cast) else err E_Overflow).
Proof. exact float_to_int64_spec. Qed.
Print Assumptions C08_double_conversion.

(* to Integer: the floor of the number if it lies in -32768..32767, OVERFLOW otherwise -- also for infinities and NaN *)
Theorem C08_single_to_integer : forall b,
  to_i16 (VSng b) = (if Binary.is_finite 24 128 (b32_of_bits b) && (-32768 <=? floor_of (b32_of_bits b)) && (floor_of (b32_of_bits b) <=? 32767)
                     then Ok (floor_of (b32_of_bits b)) else err E_Overflow).
Proof. intros b. cbn [to_i16]. rewrite float_to_int32_spec by lia. apply cast_unused. Qed.
Print Assumptions C08_single_to_integer.

Theorem C08_double_to_integer : forall b,
  to_i16 (VDbl b) = (if Binary.is_finite 53 1024 (b64_of_bits b) && (-32768 <=? floor_of64 (b64_of_bits b)) && (floor_of64 (b64_of_bits b) <=? 32767)
                     then Ok (floor_of64 (b64_of_bits b)) else err E_Overflow).
Proof. intros b. cbn [to_i16]. rewrite float_to_int64_spec by lia. apply cast_unused. Qed.
Print Assumptions C08_double_to_integer.

(* never a wrapped or truncated out-of-range value *)
Theorem C08_conversion_in_range : forall v z, to_i16 v = Ok z -> match v with VInt _ => True | _ => -32768 <= z <= 32767 end.
Proof.
  intros [s | b | b | n | a | a] z; cbn [to_i16].
  - discriminate.
  - rewrite float_to_int32_spec by lia. apply tested_range. lia.
  - rewrite float_to_int64_spec by lia. apply tested_range. lia.
  - exact (fun _ => I).
  - discriminate.
  - discriminate.
Qed.
Print Assumptions C08_conversion_in_range.
