(* C14 -- RENUM preserves the program and rewrites every reference, or changes nothing.
   Proved (Proofs/Renum.v): the change map is built completely before any line is touched, so a failing RENUM leaves the
   listing as it was; lines below old-start are not in the map; the j-th line at or above old-start is mapped to
   new-start + j*step, which is at most 65529 (that the renumbered listing is rebuilt by ordered insertion is StoreRt.renum_sorted,
   part of C15's invariant).
   Proved (here, over Proofs/Splice.v): the rewriting of one line is a replacement of character ranges of its listed text, last range
   first, and for ranges that follow one another the result is the text with exactly those ranges replaced -- every other
   character is copied in place; a line without operands keeps its tokens; RENUM refuses a program with compile errors.
   Proved (Proofs/ParseCols.v, Proofs/RenumCols.v): every range the visitor collects from a parsed line is exactly the range
   of one number token of that line in its listed text, and holds that token's digits.
   NOT proved: that the visitor collects the ranges in ascending order (the premise `ordered` of the splice theorem), and that
   scanning the rewritten text gives back the other tokens unchanged (checked by the C14 monitor, which re-parses every
   renumbered line and compares it with the original modulo the map). *)
From BL Require Import Base.Prelude Lang.Token Mach.Listing Proofs.Renum.
Local Open Scope N_scope.

(* a failing RENUM returns an error before any line is touched: the change map is built first *)
Theorem C14_atomic : forall l a b c e, c <> 0 -> renum_changes (ls_lines l) a b c 65530 a [] = Err e -> listing_renum l a b c = Err e.
Proof.
  intros l a b c e Hc H. unfold listing_renum.
  destruct (N.eqb_spec c 0) as [-> | _]; [contradiction |]. rewrite H. reflexivity.
Qed.
Print Assumptions C14_atomic.

Theorem C14_changes_shape : forall ls ns os step oe nn acc ch,
  renum_changes ls ns os step oe nn acc = Ok ch ->
  ch = assign acc (combine (renumbered ls os) (numbers nn step (length (renumbered ls os))))
  /\ Forall (fun x => x <= 65529) (numbers nn step (length (renumbered ls os))).
Proof. exact renum_changes_shape. Qed.
Print Assumptions C14_changes_shape.

Theorem C14_keeps_lower : forall ls ns os step ch k,
  renum_changes ls ns os step 65530 ns [] = Ok ch -> k < os -> ch_get ch k = None.
Proof. intros ls ns os step ch k. exact (renum_keeps_lower ls ns os step 65530 ns [] ch k). Qed.
Print Assumptions C14_keeps_lower.

Theorem C14_assigns_in_order : forall ls ns os step ch j k,
  NoDup (map fst ls) ->
  renum_changes ls ns os step 65530 ns [] = Ok ch ->
  nth_error (renumbered ls os) j = Some k ->
  ch_get ch k = Some (ns + N.of_nat j * step) /\ ns + N.of_nat j * step <= 65529.
Proof. intros ls ns os step ch j k. exact (renum_assigns_in_order ls ns os step 65530 ns [] ch j k). Qed.
Print Assumptions C14_assigns_in_order.

Example C14_witness :
  renum_changes [(10, []); (20, []); (35, [])] 100 20 5 65530 100 [] = Ok [(20, 100); (35, 105)].
Proof. vm_compute. reflexivity. Qed.

From BL Require Import Lang.Ast Lang.Lex Lang.Parse Mach.Val Mach.Runtime Proofs.Splice.
From Coq Require Import String.

(* replacing the operand ranges of the listed text, last one first, gives the text with exactly those ranges replaced:
   `rebuild` copies every other character in place (ranges that follow one another; `ordered`) *)
Theorem C14_splice_is_rebuild : forall reps s pos, ordered pos reps (lenN s) ->
  splice_all s reps = Ok (firstnN pos s ++ rebuild s pos reps).
Proof. exact splice_is_rebuild. Qed.
Print Assumptions C14_splice_is_rebuild.

(* RENUM's treatment of one line is that splice over the operands its visitor found, followed by a fresh scan *)
Theorem C14_renum_line_is_splice : forall ch l ast, parse (fst l) (snd l) = Ok ast -> flat_map (renum_visit ch) ast <> [] ->
  line_renum ch l =
  (do txt <- splice_all (tokens_str (snd l)) (flat_map (renum_visit ch) ast);
   do lx <- lex txt;
   Ok (match fst l with Some n => match ch_get ch n with Some n' => Some n' | None => Some n end | None => None end, snd lx)).
Proof.
  intros ch l ast Hp Hne. unfold line_renum. rewrite Hp.
  destruct (flat_map (renum_visit ch) ast) as [| r0 rs] eqn:E; [contradiction | reflexivity].
Qed.
Print Assumptions C14_renum_line_is_splice.

(* a line without line-number operands keeps its tokens exactly *)
Theorem C14_renum_line_without_operands : forall ch l ast, parse (fst l) (snd l) = Ok ast -> flat_map (renum_visit ch) ast = [] ->
  line_renum ch l = Ok (match fst l with Some n => match ch_get ch n with Some n' => Some n' | None => Some n end | None => None end, snd l).
Proof. intros ch l ast Hp He. unfold line_renum. rewrite Hp, He. reflexivity. Qed.
Print Assumptions C14_renum_line_without_operands.

(* RENUM refuses a program with compile-time errors and changes nothing (so no stored line fails to parse when it runs) *)
Theorem C14_renum_refuses_faulty_program : forall r e es, r_entry r <= r_pc r -> ls_ind_errors (r_listing r) = e :: es ->
  do_renum r = (r, Ok (EvErrors (e :: es))).
Proof.
  intros r e es Hpc He. unfold do_renum, rbind, rget. destruct (N.ltb_spec (r_pc r) (r_entry r)); [lia |].
  rewrite He. reflexivity.
Qed.
Print Assumptions C14_renum_refuses_faulty_program.

Theorem C14_splice_example :
  splice_all (s2l "GOTO 10:GOSUB 20")%string [((5, 7), 100); ((14, 16), 1000)] = Ok (s2l "GOTO 100:GOSUB 1000")%string.
Proof. exact splice_example. Qed.
Print Assumptions C14_splice_example.

From BL Require Import Proofs.ParseCols Proofs.RenumCols.

(* every range the renumbering visitor collects from a parsed line -- whatever the statement forms, at any nesting of IF -- is
   exactly the range of one number token of that line in its listed text *)
Theorem C14_renum_replaces_number_tokens : forall n toks ast ch c nn, parse n toks = Ok ast ->
  In (c, nn) (flat_map (renum_visit ch) ast) -> num_range toks c.
Proof.
  intros n toks ast ch c nn Hp H. pose proof (parse_columns_exact n toks ast Hp) as Hg.
  rewrite good_stmts_Forall, Forall_forall in Hg. apply in_flat_map in H. destruct H as (s & Hs & Hin).
  exact (stmt_cols toks ch s c nn (Hg s Hs) Hin).
Qed.
Print Assumptions C14_renum_replaces_number_tokens.

(* and such a range, cut out of the listed text, is the digit string of that token *)
Theorem C14_replaced_text_is_digits : forall toks c, num_range toks c ->
  exists l s, In (TLit l) toks /\ is_lnum_lit l = Some s /\ cut (tokens_str toks) c = s.
Proof.
  intros toks c [before [l [s [after (E & Hl & ->)]]]]. exists l, s. split; [rewrite E; apply in_or_app; right; left; reflexivity |].
  split; [exact Hl |]. unfold cut. cbn [fst snd]. rewrite (N.add_comm (widths before)), N.add_sub.
  rewrite E. unfold tokens_str. rewrite flat_map_app. cbn [flat_map]. unfold widths, tokens_str.
  rewrite (lnum_lit_str l s Hl). apply firstnN_skipnN_app.
Qed.
Print Assumptions C14_replaced_text_is_digits.
