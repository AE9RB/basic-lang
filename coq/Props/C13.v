(* C13 -- interrupt / STOP / END are transparent under CONT; slicing does not matter.
   `exec_loop_x` (Proofs/Slicing.v) is the model's execute_loop with the reason for stopping made visible (None = the
   instruction budget ran out); C13_loop_is_model ties it to the model's own loop.
   Proved: any way of cutting a run into budgets gives the same state and the same first event as one budget of
   the same total -- for every program, state and cut.  Proved as well (Proofs/ContTrip.v): the interrupt / CONT round trip
   through the public entry points -- interrupt(), the execute() calls that report ?BREAK and show the prompt, enter("CONT"),
   execute(k+1) -- ends in execute(k) of a machine that equals the interrupted one in address, stack, variables, functions,
   DATA pointer, random state, program code, symbols and data, and differs only in the cursor column (0 after the forced line
   break), the emptied continuation slot, the trace marker and the direct-code area; the same for any machine at the prompt
   whose slot holds a running program (after STOP, END or an error).  And (Proofs/DeadFields.v, ContRun.v): no instruction
   reads the three fields in which the resumed machine can differ while the slot is empty and tracing is off, so -- when the
   cursor stood in column 0 at the interrupt -- the execute() calls after CONT return exactly the events the uninterrupted
   machine returns, one call (C13_interrupt_is_transparent) or any number of calls (C13_calls_ignore_dead_fields), as long
   as the reference run stays inside the program and keeps running.  NOT proved: the case of a cursor beyond column 0 (one
   line break is forced by design, after which TAB, POS and print zones differ), runs that trace (TRON re-announces the
   line); these are checked on runs by the C13 monitor.  An INPUT in the way is covered step by step: the interrupt at the
   prompt (C13_interrupt_at_prompt_is_transparent), the reply (C13_reply_ignores_dead_fields) and the call that stores the
   fields or unwinds to the prompt again (C13_field_stores_ignore_dead_fields).  STOP and END inside
   the program are covered like the interrupt (C13_stop_is_transparent, C13_end_is_transparent): after the report, the
   prompt and CONT, the call returns what the machine would have returned had the statement been skipped. *)
From BL Require Import Base.Prelude Lang.Ast Mach.Val Mach.Compile Mach.Listing Mach.Runtime Proofs.Slicing Proofs.ContTrip Proofs.Dirty Proofs.DeadFields Proofs.ContRun.
Local Open Scope N_scope.

Theorem C13_interrupt_saves : forall r, r_pc r < r_entry r ->
  let r' := rt_interrupt r in
  r_cont r' = r_state r /\ r_cont_pc r' = r_pc r /\ r_stack r' = r_stack r /\ r_vars r' = r_vars r
  /\ r_pc r' = r_pc r /\ r_state r' = StInterrupt.
Proof.
  intros r H. cbn zeta. rewrite (interrupt_in_program r H). repeat split; reflexivity.
Qed.
Print Assumptions C13_interrupt_saves.

Theorem C13_loop_is_model : forall O fuel h r,
  exec_loop O fuel h r = (fst (exec_loop_x O fuel h r), match snd (exec_loop_x O fuel h r) with
                                                        | Ok x => Ok (ev_or_running x)
                                                        | Err e => Err e | Panic => Panic | Hang => Hang
                                                        end).
Proof.
  intros O.
  induction fuel as [| f IH]; intros h r; [reflexivity |].
  cbn [exec_loop exec_loop_x]. cbv beta delta [rbind rget rret rmod] iota.
  destruct (r_tron r && line_changed (prog_line_for r (r_pc r)) (r_tr r)); cbv beta iota.
  - destruct (prog_line_for r (r_pc r)) as [num |]; [reflexivity |].
    destruct (one_op O h (set_tr r None)) as [r1 [[ev |] | e | |]]; try reflexivity. apply IH.
  - destruct (one_op O h r) as [r1 [[ev |] | e | |]]; try reflexivity. apply IH.
Qed.
Print Assumptions C13_loop_is_model.

(* running n+m instructions = running n and, if nothing but the budget stopped that, m more from where it stopped *)
Theorem C13_split : forall O n m h r,
  exec_loop_x O (n + m) h r = match exec_loop_x O n h r with (r1, Ok None) => exec_loop_x O m h r1 | other => other end.
Proof.
  intros O.
  induction n as [| n IH]; intros m h r; [reflexivity |].
  cbn [Nat.add exec_loop_x]. cbv beta delta [rbind rget rret rmod] iota.
  destruct (r_tron r && line_changed (prog_line_for r (r_pc r)) (r_tr r)); cbv beta iota.
  - destruct (prog_line_for r (r_pc r)) as [num |]; [reflexivity |].
    destruct (one_op O h (set_tr r None)) as [r1 [[ev |] | e | |]]; try reflexivity. apply IH.
  - destruct (one_op O h r) as [r1 [[ev |] | e | |]]; try reflexivity. apply IH.
Qed.
Print Assumptions C13_split.

Theorem C13_slicing_irrelevant : forall O qs h r, run_slices O qs h r = exec_loop_x O (fold_right Nat.add 0%nat qs) h r.
Proof.
  intros O.
  induction qs as [| q rest IH]; intros h r; [reflexivity |].
  cbn [run_slices fold_right]. rewrite C13_split.
  destruct (exec_loop_x O q h r) as [r1 [[ev |] | e | |]]; try reflexivity. apply IH.
Qed.
Print Assumptions C13_slicing_irrelevant.

Theorem C13_same_total_same_run : forall O qs qs' h r,
  fold_right Nat.add 0%nat qs = fold_right Nat.add 0%nat qs' -> run_slices O qs h r = run_slices O qs' h r.
Proof. intros O qs qs' h r E. rewrite !C13_slicing_irrelevant, E. reflexivity. Qed.
Print Assumptions C13_same_total_same_run.

(* at the API: while the machine stays in a running state between two calls, execute(n+m) = execute(n); execute(m) *)
Theorem C13_execute_split : forall O n m r r1,
  running_state (r_state r) = true -> ls_dir_errors (r_listing r) = [] ->
  let h := match ls_ind_errors (r_listing r) with [] => false | _ => true end in
  exec_loop_x O (N.to_nat n) h r = (r1, Ok None) ->
  running_state (r_state r1) = true -> r_listing r1 = r_listing r ->
  rt_execute O r n = Ok (r1, EvRunning) /\ rt_execute O r (n + m) = rt_execute O r1 m.
Proof.
  intros O n m r r1 Hs Hd h Hx Hs1 Hl. split.
  - rewrite (exec_running O r n Hs Hd). rewrite C13_loop_is_model. fold h. rewrite Hx.
    apply after_loop_ok. intros _. discriminate.
  - rewrite (exec_running O r (n + m) Hs Hd). rewrite (exec_running O r1 m Hs1) by (rewrite Hl; exact Hd).
    rewrite !C13_loop_is_model. rewrite Hl. fold h.
    replace (N.to_nat (n + m)) with (N.to_nat n + N.to_nat m)%nat by lia.
    rewrite C13_split, Hx. reflexivity.
Qed.
Print Assumptions C13_execute_split.

(* the error path of execute() (STOP, ?BREAK, any error inside the program) saves the running state and the address of
   the next instruction, and keeps stack, variables, program and listing *)
Theorem C13_break_saves : forall r2 er r' e st, r_state r2 = st -> running_state st = true -> st = StRunning ->
  r_pc r2 < r_entry r2 -> stack_is_full r2 = false ->
  match r_state r2 with
  | StInputRunning =>
      let '(s, a) := unwind_input (r_stack r2) in
      let r3 := set_stack r2 s in
      let r4 := match a with Some addr => set_pc r3 addr | None => r3 end in
      Ok (set_state r4 StInputRedo, EvRunning)
  | st =>
      let r3 := set_cont_pc (set_cont (set_state r2 (StRuntimeError (in_line er (cur_line r2)))) st) (r_pc r2) in
      let r4 := if (r_entry r3 <=? r_pc r3) || stack_is_full r3 then set_cont (set_stack r3 []) StStopped else r3 in
      Ok (r4, EvRunning)
  end = Ok (r', e) ->
  r_cont r' = StRunning /\ r_cont_pc r' = r_pc r2 /\ r_stack r' = r_stack r2 /\ r_vars r' = r_vars r2 /\ r_pc r' = r_pc r2
  /\ r_prog r' = r_prog r2 /\ r_listing r' = r_listing r2.
Proof.
  intros r2 er r' e st Hst _ -> Hpc Hfull E. rewrite Hst in E.
  change (Ok (save_error r2 er StRunning, EvRunning) = Ok (r', e)) in E. rewrite save_error_keeps in E by assumption.
  injection E as <- _. cbn. repeat split; reflexivity.
Qed.
Print Assumptions C13_break_saves.

(* CONT puts exactly that state and address back, empties the slot and touches nothing else *)
Theorem C13_cont_restores : forall r st, r_cont r = st -> is_stopped st = false -> r_state r = StRunning ->
  fst (do_cont r) = set_pc (set_cont (set_state r st) StStopped) (r_cont_pc r)
  /\ snd (do_cont r) = Ok (if is_running st then None else Some EvRunning).
Proof. exact cont_restores. Qed.
Print Assumptions C13_cont_restores.

Theorem C13_cont_refused : forall r, r_cont r = StStopped -> do_cont r = (r, err E_CantContinue).
Proof. intros r H. unfold do_cont, rbind, rget. rewrite H. reflexivity. Qed.
Print Assumptions C13_cont_refused.

(* the interrupt / CONT round trip at the public entry points (Proofs/ContTrip.v) *)
Theorem C13_cont_line_compiles : forall p c, Linked p -> program_link (codegen_line p None (Ok [SCont c])) = cont_prog p.
Proof. exact cont_line_compiles. Qed.
Print Assumptions C13_cont_line_compiles.

Theorem C13_cont_prog_keeps_program : forall p, pg_direct p <= lenN (l_ops (pg_link p)) ->
  let p' := cont_prog p in
  firstnN (pg_direct p) (l_ops (pg_link p')) = firstnN (pg_direct p) (l_ops (pg_link p))
  /\ l_data (pg_link p') = l_data (pg_link p) /\ l_data_pos (pg_link p') = l_data_pos (pg_link p)
  /\ l_syms (pg_link p') = l_syms (pg_link p) /\ pg_direct p' = pg_direct p /\ pg_ind_errors p' = pg_ind_errors p.
Proof. intros p H. split; [exact (cont_prog_keeps_code p H) | repeat split; reflexivity]. Qed.
Print Assumptions C13_cont_prog_keeps_program.

Theorem C13_error_then_prompt : forall O rS e k1 k2 k3 k4, r_state rS = StRuntimeError e -> r_entry rS <> 0 ->
  let pr := EvPrint (match r_prompt rS with [] => [] | p => p ++ [c_nl] end) in
  if 0 <? r_col rS
  then execs O rS [k1; k2; k3; k4] = Ok (at_prompt rS, [EvPrint [c_nl]; EvErrors [e]; pr; EvStopped])
  else execs O rS [k2; k3; k4] = Ok (at_prompt rS, [EvErrors [e]; pr; EvStopped]).
Proof.
  intros O rS e k1 k2 k3 k4 Hs He. cbn zeta. destruct (0 <? r_col rS) eqn:Hcol.
  - (* a cursor beyond column 0 costs one more call, which answers the line break *)
    change (execs O rS [k1; k2; k3; k4]) with (do x <- rt_execute O rS k1; do y <- execs O (fst x) [k2; k3; k4]; Ok (fst y, snd x :: snd y)).
    rewrite (exec_error O rS k1 e Hs), Hcol. cbn [bind fst snd].
    rewrite (error_report O (set_col rS 0) e k2 k3 k4 Hs He eq_refl). reflexivity.
  - apply error_report; [exact Hs | exact He | apply N.ltb_ge in Hcol; lia].
Qed.
Print Assumptions C13_error_then_prompt.

Theorem C13_break_then_prompt : forall O r1 k1 k2 k3 k4, r_state r1 = StInterrupt -> r_entry r1 <> 0 ->
  let e := mkErr E_Break (cur_line r1) (0, 0) in
  let pr := EvPrint (match r_prompt r1 with [] => [] | p => p ++ [c_nl] end) in
  if 0 <? r_col r1
  then execs O r1 [k1; k2; k3; k4] = Ok (at_prompt r1, [EvPrint [c_nl]; EvErrors [e]; pr; EvStopped])
  else execs O r1 [k2; k3; k4] = Ok (at_prompt r1, [EvErrors [e]; pr; EvStopped]).
Proof.
  intros O r1 k1 k2 k3 k4 Hs He. cbn zeta.
  pose proof (C13_error_then_prompt O (set_state r1 (StRuntimeError (mkErr E_Break (cur_line r1) (0, 0)))) _ k1 k2 k3 k4 eq_refl He) as H.
  cbn zeta in H. change (r_col (set_state r1 _)) with (r_col r1) in H.
  destruct (0 <? r_col r1); cbn [execs] in H |- *; rewrite (exec_interrupt O r1 _ Hs); exact H.
Qed.
Print Assumptions C13_break_then_prompt.

Theorem C13_cont_instruction_runs : forall O r k h, r_dirty r = false -> Linked (r_prog r) -> r_tron r = false ->
  r_cont r = StRunning ->
  exec_loop O (S k) h (entered r) = exec_loop O k h (resumed r).
Proof. intros O r k h _ L Ht Hc. rewrite (cont_instruction O r k h L Ht) by (rewrite Hc; reflexivity). rewrite Hc. reflexivity. Qed.
Print Assumptions C13_cont_instruction_runs.

Theorem C13_interrupt_cont_round_trip : forall O r k,
  r_state r = StRunning -> r_pc r < r_entry r -> r_dirty r = false -> r_tron r = false -> Linked (r_prog r) ->
  r_entry r = pg_direct (r_prog r) ->
  let rB := at_prompt (rt_interrupt r) in
  let r' := resumed rB in
  rt_enter O rB cont_text = Ok (entered rB, true)
  /\ rt_execute O (entered rB) (N.succ k) = rt_execute O r' k
  /\ (r_pc r' = r_pc r /\ r_stack r' = r_stack r /\ r_slen r' = r_slen r /\ r_vars r' = r_vars r /\ r_fns r' = r_fns r
      /\ r_rand r' = r_rand r /\ r_ent r' = r_ent r /\ r_state r' = StRunning /\ r_entry r' = r_entry r
      /\ r_tron r' = r_tron r /\ r_dirty r' = r_dirty r /\ r_snap r' = r_snap r /\ r_prompt r' = r_prompt r
      /\ ls_lines (r_listing r') = ls_lines (r_listing r) /\ r_prog r' = cont_prog (r_prog r)
      /\ r_col r' = 0 /\ r_cont r' = StStopped /\ r_cont_pc r' = r_pc r /\ r_tr r' = None).
Proof.
  intros O r k Hs Hpc Hd Ht L He. cbn zeta. rewrite (interrupt_in_program r Hpc), Hs.
  set (rB := at_prompt (set_cont_pc (set_cont (set_state r StInterrupt) StRunning) (r_pc r))).
  destruct (cont_at_prompt_resumes O rB k I eq_refl Hd Ht L) as [H1 H2].
  split; [exact H1 |]. split; [exact H2 |].
  unfold resumed. cbn. rewrite He. repeat split; reflexivity.
Qed.
Print Assumptions C13_interrupt_cont_round_trip.

Theorem C13_cont_at_prompt_resumes : forall O rB k,
  match r_state rB with StInput | StInkey => False | _ => True end ->
  r_cont rB = StRunning -> r_dirty rB = false -> r_tron rB = false -> Linked (r_prog rB) ->
  let r' := resumed rB in
  rt_enter O rB cont_text = Ok (entered rB, true)
  /\ rt_execute O (entered rB) (N.succ k) = rt_execute O r' k
  /\ (r_pc r' = r_cont_pc rB /\ r_stack r' = r_stack rB /\ r_slen r' = r_slen rB /\ r_vars r' = r_vars rB /\ r_fns r' = r_fns rB
      /\ r_rand r' = r_rand rB /\ r_ent r' = r_ent rB /\ r_state r' = StRunning /\ r_entry r' = pg_direct (r_prog rB)
      /\ r_tron r' = r_tron rB /\ r_dirty r' = r_dirty rB /\ r_snap r' = r_snap rB /\ r_prompt r' = r_prompt rB
      /\ ls_lines (r_listing r') = ls_lines (r_listing rB) /\ r_prog r' = cont_prog (r_prog rB)
      /\ r_col r' = r_col rB /\ r_cont r' = StStopped /\ r_cont_pc r' = r_cont_pc rB /\ r_tr r' = None).
Proof.
  intros O rB k Hst HcB HdB HtB HLB. cbn zeta. destruct (cont_at_prompt_resumes O rB k Hst HcB HdB HtB HLB) as [H1 H2].
  split; [exact H1 |]. split; [exact H2 |]. unfold resumed. rewrite HcB. cbn. repeat split; reflexivity.
Qed.
Print Assumptions C13_cont_at_prompt_resumes.

(* Program::link always leaves the shape the round trip asks for *)
Theorem C13_program_link_shape : forall p, let q := program_link p in
  l_unlinked (pg_link q) = [] /\ l_whiles (pg_link q) = [] /\ l_cur (pg_link q) = 0%Z
  /\ filter (fun e => (0 <=? fst e)%Z) (l_syms (pg_link q)) = l_syms (pg_link q).
Proof.
  intros p. cbn zeta. unfold program_link.
  match goal with |- context [link_link ?l] => set (l0 := l) end.
  unfold link_link. destruct (link_whiles_loop (l_whiles l0) [] (l_syms l0) (l_unlinked l0) []) as [unl werrs].
  match goal with |- context [fold_left ?f unl ?a] => destruct (fold_left f unl a) as [ops errs] end.
  match goal with |- context [if ?c then _ else _] => destruct c end; cbn [pg_link l_unlinked l_whiles l_cur l_syms l_ops l_data].
  - repeat split. apply filter_all, all_zassoc_set; [reflexivity | apply all_filter].
  - repeat split. apply filter_all, all_filter.
Qed.
Print Assumptions C13_program_link_shape.

(* non-vacuity: a machine reached through enter / execute only, stopped after its first PRINT in the middle of a comparison *)
Example C13_round_trip_applies :
  r_state trip_machine = StRunning /\ r_pc trip_machine < r_entry trip_machine /\ r_dirty trip_machine = false
  /\ r_tron trip_machine = false /\ Linked (r_prog trip_machine) /\ r_entry trip_machine = pg_direct (r_prog trip_machine)
  /\ r_stack trip_machine <> []%list /\ 0 < r_col trip_machine.
Proof. exact trip_premises. Qed.

(* no run reads the three fields: instruction, loop, execute() call, calls (Proofs/DeadFields.v, Proofs/ContRun.v) *)
Theorem C13_instruction_ignores_dead_fields : forall O h op, op <> OpCont -> forall c t ops r,
  exists c' t', exec_op O h op (L c t ops r) = (L c' t' ops (fst (exec_op O h op r)), snd (exec_op O h op r)).
Proof. intros O h op Hne c t ops. exact (lensed_exec_op O h op Hne ops c t). Qed.
Print Assumptions C13_instruction_ignores_dead_fields.

Theorem C13_run_ignores_dead_fields : forall O fuel h e0 r c t ops,
  safe_run O e0 fuel h r -> firstnN e0 ops = firstnN e0 (l_ops (pg_link (r_prog r))) ->
  exists c' t', exec_loop O fuel h (L c t ops r) = (L c' t' ops (fst (exec_loop O fuel h r)), snd (exec_loop O fuel h r)).
Proof. exact run_ignores_dead_fields. Qed.
Print Assumptions C13_run_ignores_dead_fields.

Theorem C13_execute_ignores_dead_fields : forall O r k e0 c t ops,
  r_state r = StRunning -> ls_dir_errors (r_listing r) = [] ->
  safe_run O e0 (N.to_nat k) (has_ind r) r -> firstnN e0 ops = firstnN e0 (l_ops (pg_link (r_prog r))) ->
  same_up_to ops (rt_execute O (L c t ops r) k) (rt_execute O r k).
Proof. intros O r k e0 c t ops Hs. apply execute_ignores_dead_fields. rewrite Hs. reflexivity. Qed.
Print Assumptions C13_execute_ignores_dead_fields.

Theorem C13_calls_ignore_dead_fields : forall O ks r e0 c t ops,
  forallb not_edit (l_ops (pg_link (r_prog r))) = true ->
  safe_calls O e0 ks r -> firstnN e0 ops = firstnN e0 (l_ops (pg_link (r_prog r))) ->
  same_trace ops (execs O (L c t ops r) ks) (execs O r ks).
Proof.
  intros O.
  induction ks as [| k ks IH]; intros r e0 c t ops Hno Hsafe Hag; [exists c, t; reflexivity |].
  destruct Hsafe as (Hs & Hd & Hrun & Hnext). cbn [execs].
  pose proof (execute_ignores_dead_fields O r k e0 c t ops ltac:(rewrite Hs; reflexivity) Hd Hrun Hag) as H1.
  (* an answer other than Ok is the same on both sides and ends both traces *)
  destruct (rt_execute O r k) as [[r3 ev] | e | |] eqn:E; cbn [same_up_to] in H1; cbn [bind]; [| rewrite H1; reflexivity ..].
  destruct H1 as [c1 [t1 E1]]. rewrite E1. cbn [bind fst snd].
  destruct (noedit_execute_frame O r k r3 ev Hno E) as (_ & _ & Hops). rewrite <- Hops in Hno, Hag.
  pose proof (IH r3 e0 c1 t1 ops Hno Hnext Hag) as H2.
  destruct (execs O r3 ks) as [[r4 evs] | e | |]; cbn [same_trace] in H2 |- *; cbn [bind fst snd]; [| rewrite H2; reflexivity ..].
  destruct H2 as [c2 [t2 E2]]. rewrite E2. exists c2, t2. reflexivity.
Qed.
Print Assumptions C13_calls_ignore_dead_fields.

(* the property for interrupts: interrupt(), ?BREAK, prompt, CONT -- and the call returns what the uninterrupted call returns *)
Theorem C13_interrupt_is_transparent : forall O r k,
  r_state r = StRunning -> r_pc r < r_entry r -> r_dirty r = false -> r_tron r = false -> Linked (r_prog r) ->
  r_entry r = pg_direct (r_prog r) -> r_col r = 0 -> tidy r ->
  safe_run O (r_entry r) (N.to_nat k) (has_ind r) r ->
  let rB := at_prompt (rt_interrupt r) in
  rt_enter O rB cont_text = Ok (entered rB, true)
  /\ same_up_to (firstnN (pg_direct (r_prog r)) (l_ops (pg_link (r_prog r))) ++ [OpCont; OpEnd])
                (rt_execute O (entered rB) (N.succ k)) (rt_execute O r k).
Proof.
  intros O r k Hs Hpc Hd Ht HL He Hcol Htidy Hsafe. cbn zeta. rewrite (interrupt_in_program r Hpc), Hs.
  exact (cont_after_parking O r k Hs Hd Ht HL He Hcol Htidy Hsafe).
Qed.
Print Assumptions C13_interrupt_is_transparent.

(* non-vacuity: a loop stopped inside a comparison with the cursor in column 0 meets every premise, for 200 instructions *)
Example C13_transparent_applies :
  let r := loop_machine in
  r_state r = StRunning /\ r_pc r < r_entry r /\ r_dirty r = false /\ r_tron r = false /\ Linked (r_prog r)
  /\ r_entry r = pg_direct (r_prog r) /\ r_col r = 0 /\ tidy r /\ r_stack r <> nil
  /\ safe_run Drv.Driver.dummy_oracle (r_entry r) (N.to_nat 200) (has_ind r) r
  /\ forallb not_edit (l_ops (pg_link (r_prog r))) = true.
Proof. exact transparent_premises. Qed.

(* STOP and END inside the program, then CONT (Proofs/ContRun.v) *)
Theorem C13_stop_is_transparent : forall O r j k k1 k2 k3,
  r_state r = StRunning -> r_pc r + 1 < r_entry r -> r_dirty r = false -> r_tron r = false -> Linked (r_prog r) ->
  r_entry r = pg_direct (r_prog r) -> r_col r = 0 -> tidy r -> stack_is_full r = false ->
  nthN (l_ops (pg_link (r_prog r))) (r_pc r) = Some OpStop ->
  let r2 := set_pc r (r_pc r + 1) in
  safe_run O (r_entry r) (N.to_nat k) (has_ind r) r2 ->
  let rS := stopped_at r in
  let rB := at_prompt rS in
  rt_execute O r (N.succ j) = Ok (rS, EvRunning)
  /\ execs O rS [k1; k2; k3] = Ok (rB, [EvErrors [in_line (mkErr E_Break None (0, 0)) (cur_line r2)];
                                          EvPrint (match r_prompt r with [] => [] | p => p ++ [c_nl] end); EvStopped])
  /\ rt_enter O rB cont_text = Ok (entered rB, true)
  /\ same_up_to (firstnN (pg_direct (r_prog r)) (l_ops (pg_link (r_prog r))) ++ [OpCont; OpEnd])
                (rt_execute O (entered rB) (N.succ k)) (rt_execute O r2 k).
Proof.
  intros O r j k k1 k2 k3 Hs Hpc Hd Ht HL He Hcol Htidy Hfull Hop. cbn zeta. intros Hsafe.
  split; [exact (stop_stops O r j Hs (tidy_dir r Htidy) Ht Hop Hpc Hfull) |].
  split; [apply (error_report O (stopped_at r)); [reflexivity | cbn; lia | exact Hcol] |].
  exact (cont_after_parking O (set_pc r (r_pc r + 1)) k Hs Hd Ht HL He Hcol Htidy Hsafe).
Qed.
Print Assumptions C13_stop_is_transparent.

Theorem C13_end_is_transparent : forall O r j k,
  r_state r = StRunning -> r_pc r + 1 < r_entry r -> r_dirty r = false -> r_tron r = false -> Linked (r_prog r) ->
  r_entry r = pg_direct (r_prog r) -> r_col r = 0 -> tidy r ->
  nthN (l_ops (pg_link (r_prog r))) (r_pc r) = Some OpEnd ->
  let r2 := set_pc r (r_pc r + 1) in
  safe_run O (r_entry r) (N.to_nat k) (has_ind r) r2 ->
  let rB := ended_at r in
  rt_execute O r (N.succ j) = Ok (rB, EvPrint (match r_prompt r with [] => [] | p => p ++ [c_nl] end))
  /\ rt_enter O rB cont_text = Ok (entered rB, true)
  /\ same_up_to (firstnN (pg_direct (r_prog r)) (l_ops (pg_link (r_prog r))) ++ [OpCont; OpEnd])
                (rt_execute O (entered rB) (N.succ k)) (rt_execute O r2 k).
Proof.
  intros O r j k Hs Hpc Hd Ht HL He Hcol Htidy Hop. cbn zeta. intros Hsafe.
  split; [exact (end_ends O r j Hs (tidy_dir r Htidy) Ht Hop Hpc Hcol) |].
  rewrite (ended_is_parked r (proj1 Htidy) Hcol).
  exact (cont_after_parking O (set_pc r (r_pc r + 1)) k Hs Hd Ht HL He Hcol Htidy Hsafe).
Qed.
Print Assumptions C13_end_is_transparent.

(* non-vacuity: machines reached through enter / execute only, standing in front of a STOP and in front of an END *)
Example C13_stop_applies :
  let r := before_stop in
  r_state r = StRunning /\ r_pc r + 1 < r_entry r /\ r_dirty r = false /\ r_tron r = false /\ Linked (r_prog r)
  /\ r_entry r = pg_direct (r_prog r) /\ r_col r = 0 /\ tidy r /\ stack_is_full r = false
  /\ nthN (l_ops (pg_link (r_prog r))) (r_pc r) = Some OpStop
  /\ safe_run Drv.Driver.dummy_oracle (r_entry r) (N.to_nat 50) (has_ind r) (set_pc r (r_pc r + 1)).
Proof. exact stop_premises. Qed.
Example C13_end_applies :
  let r := before_end in
  r_state r = StRunning /\ r_pc r + 1 < r_entry r /\ r_dirty r = false /\ r_tron r = false /\ Linked (r_prog r)
  /\ r_entry r = pg_direct (r_prog r) /\ r_col r = 0 /\ tidy r
  /\ nthN (l_ops (pg_link (r_prog r))) (r_pc r) = Some OpEnd
  /\ safe_run Drv.Driver.dummy_oracle (r_entry r) (N.to_nat 50) (has_ind r) (set_pc r (r_pc r + 1)).
Proof. exact end_premises. Qed.

(* an interrupt while the program waits at an INPUT prompt (Proofs/ContTrip.v, Proofs/ContRun.v) *)
Theorem C13_cont_instruction_waits : forall O r k h, r_dirty r = false -> Linked (r_prog r) -> r_tron r = false ->
  is_stopped (r_cont r) = false -> is_running (r_cont r) = false ->
  exec_loop O (S k) h (entered r) = (resumed r, Ok EvRunning).
Proof. intros O r k h _ L Ht Hns Hnr. rewrite (cont_instruction O r k h L Ht Hns), Hnr. reflexivity. Qed.
Print Assumptions C13_cont_instruction_waits.

Theorem C13_interrupt_at_prompt_is_transparent : forall O r k k',
  r_state r = StInput -> r_pc r < r_entry r -> r_dirty r = false -> r_tron r = false -> Linked (r_prog r) ->
  r_entry r = pg_direct (r_prog r) -> r_col r = 0 -> tidy r ->
  let rB := at_prompt (rt_interrupt r) in
  rt_enter O rB cont_text = Ok (entered rB, true)
  /\ rt_execute O (entered rB) (N.succ k) = Ok (resumed rB, EvRunning)
  /\ same_up_to (firstnN (pg_direct (r_prog r)) (l_ops (pg_link (r_prog r))) ++ [OpCont; OpEnd])
                (rt_execute O (resumed rB) k') (rt_execute O r k').
Proof.
  intros O r k k' Hs Hpc Hd Ht HL He Hcol Htidy. cbn zeta.
  rewrite (interrupt_in_program r Hpc), Hs. change (at_prompt _) with (parked r StInput).
  split; [exact (enter_cont O (parked r StInput) I Hd HL) |].
  split.
  - rewrite exec_running by reflexivity. rewrite N2Nat.inj_succ.
    rewrite (cont_instruction O (parked r StInput) _ _ HL Ht eq_refl). cbn [is_running parked at_prompt r_cont set_entry set_col set_state set_cont_pc set_cont].
    apply after_loop_ok. intros _. discriminate.
  - rewrite (resumed_parked r _ Hs Hcol HL Htidy He). apply (prompt_ignores_dead_fields O). exact Hs.
Qed.
Print Assumptions C13_interrupt_at_prompt_is_transparent.

Example C13_prompt_applies :
  let r := waiting_machine in
  r_state r = StInput /\ r_pc r < r_entry r /\ r_dirty r = false /\ r_tron r = false /\ Linked (r_prog r)
  /\ r_entry r = pg_direct (r_prog r) /\ r_col r = 0 /\ tidy r /\ r_stack r <> nil.
Proof. exact waiting_premises. Qed.

(* the reply and the call that stores its fields *)
Theorem C13_reply_ignores_dead_fields : forall O r s c t ops, r_state r = StInput ->
  exists c' t', rt_enter O (L c t ops r) s = Ok (L c' t' ops (set_col (enter_input O r s) 0), true)
                /\ rt_enter O r s = Ok (set_col (enter_input O r s) 0, true).
Proof.
  intros O r s c t ops Hs. rewrite !enter_eq. rewrite lens_state, Hs.
  destruct (enter_input_lens O r s c t ops) as [c1 [t1 E]]. rewrite E. exists c1, t1. split; reflexivity.
Qed.
Print Assumptions C13_reply_ignores_dead_fields.

Theorem C13_field_stores_ignore_dead_fields : forall O r k e0 c t ops,
  r_state r = StInputRunning -> ls_dir_errors (r_listing r) = [] ->
  safe_run O e0 (N.to_nat k) (has_ind r) r -> firstnN e0 ops = firstnN e0 (l_ops (pg_link (r_prog r))) ->
  same_up_to ops (rt_execute O (L c t ops r) k) (rt_execute O r k).
Proof. intros O r k e0 c t ops Hs. apply execute_ignores_dead_fields. rewrite Hs. reflexivity. Qed.
Print Assumptions C13_field_stores_ignore_dead_fields.
