(* C06 -- variables and arrays are typed, zero-initialised, bounds-checked, never aliased.
   The lemmas about the store are in Proofs/Vars.v (Proofs/DecN.v for the decimal rendering of subscripts).
   `well_typed vs`: every stored entry holds a value of the type its key demands (suffix, else DEFtype of the letter).
   It holds of the empty store and is preserved by assignment and by DEFtype; reading always
   returns a value of the variable's own type.  Distinct keys never share storage (C06_store_frame), and distinct
   variables / array elements have distinct keys (C06_array_key_inj, C06_array_key_not_scalar).  An array element is reached
   exactly with subscripts inside the bounds (C06_array_bounds, C06_array_rejects); DIM of a dimensioned name is refused, ERASE
   frees the name.  SWAP (with Proofs/Swap.v): the code it compiles to exchanges two values of the same kind and, on mixed
   kinds, reports TYPE MISMATCH with the variables as they were.
   Assumption made explicit in the statements: names contain no comma (the lexer produces none). *)
From BL Require Import Base.Prelude Base.Floats Mach.Val Mach.Var Mach.Compile Mach.Runtime Proofs.Vars.
From Coq Require Import String.
Local Open Scope N_scope.

Theorem C06_zero_init : forall vs k t, alist_get k (vs_vars vs) = None -> key_type (vs_types vs) k = Some t ->
  var_fetch vs k = Ok (zero_of t).
Proof. intros vs k t E Hk. unfold var_fetch. rewrite E, Hk. reflexivity. Qed.
Print Assumptions C06_zero_init.

Theorem C06_convert_typed : forall t v v', convert_to t v = Ok v' -> val_type v' = Some t.
Proof. exact convert_to_type. Qed.
Print Assumptions C06_convert_typed.

Theorem C06_empty_typed : well_typed vars_empty.
Proof. intros k v H. destruct H. Qed.
Print Assumptions C06_empty_typed.

Theorem C06_store_typed : forall vs k v vs', well_typed vs -> var_store vs k v = Ok vs' -> well_typed vs'.
Proof.
  intros vs k v vs' Hw H. destruct (var_store_inv _ _ _ _ H) as (t & v' & Hk & Hc & Hu).
  apply update_val_inv in Hu. destruct Hu as [-> _]. intros k' x Hx. cbn [vs_vars vs_types] in *.
  assert (Hx' : (k', x) = (k, v') \/ In (k', x) (vs_vars vs))
    by (destruct (is_default v'); [right | destruct Hx as [<- | Hx]; [left; reflexivity | right]]; exact (In_remove _ _ _ _ Hx)).
  destruct Hx' as [E | Hold]; [| exact (Hw k' x Hold)].
  injection E as -> ->. exists t. split; [exact Hk | exact (convert_to_type _ _ _ Hc)].
Qed.
Print Assumptions C06_store_typed.

(* DEFINT/DEFSNG/DEFDBL/DEFSTR keep the store well typed: whatever changes type is dropped *)
Theorem C06_deftype_typed : forall vs t from to vs', well_typed vs -> var_def vs t from to = Ok vs' -> well_typed vs'.
Proof.
  intros vs t from to vs' Hw H. unfold var_def in H.
  apply bind_ok in H. destruct H as (f & _ & H). apply bind_ok in H. destruct H as (o & _ & H).
  destruct f as [| cf f']; [discriminate |]. destruct o as [| ct o']; [discriminate |].
  destruct (is_upper cf && is_upper ct) eqn:Eup; cbn in H; [| discriminate].
  apply andb_prop in Eup. destruct Eup as [Ucf Uct].
  injection H as <-. intros k v Hin. cbn [vs_vars vs_types] in *.
  apply filter_In in Hin. destruct Hin as [Hin Hkeep]. cbn in Hkeep. fold (suffixed k) in Hkeep.
  destruct (Hw k v Hin) as (t0 & Hk0 & Hv0).
  destruct (suffixed k) eqn:Esuf; cbn in Hkeep.
  - exists t0. split; [rewrite (key_type_suffixed (vs_types vs)); assumption | exact Hv0].
  - rewrite (key_type_plain _ k Esuf) in Hk0. rewrite (key_type_plain _ k Esuf).
    destruct (after_last_dot k k) as [| c rest]; [discriminate |].
    unfold type_of_letter in Hk0 |- *. destruct (is_upper c) eqn:Uc; [| discriminate].
    rewrite set_range_nth. destruct (nth_error (vs_types vs) (N.to_nat (c - 65))) as [ty |]; [| discriminate].
    injection Hk0 as ->. cbn [Nat.add]. rewrite (letter_range _ _ _ Ucf Uc Uct).
    destruct ((cf <=? c) && (c <=? ct)); cbn in Hkeep.
    + (* the letter is retyped: only a value that already has the new type is kept *)
      rewrite Hv0 in Hkeep. apply vtype_eqb_eq in Hkeep. subst t0. exists t. split; [reflexivity | exact Hv0].
    + exists t0. split; [reflexivity | exact Hv0].
Qed.
Print Assumptions C06_deftype_typed.

Theorem C06_fetch_typed : forall vs k v t, well_typed vs -> key_type (vs_types vs) k = Some t ->
  var_fetch vs k = Ok v -> val_type v = Some t.
Proof.
  intros vs k v t Hw Hk. unfold var_fetch. destruct (alist_get k (vs_vars vs)) as [x |] eqn:E.
  - intros H. injection H as <-. destruct (Hw k x (alist_get_In _ _ _ E)) as (t' & Hk' & Hv). congruence.
  - rewrite Hk. intros H. injection H as <-. apply zero_of_type.
Qed.
Print Assumptions C06_fetch_typed.

Theorem C06_store_then_fetch : forall vs k v vs' t v', key_type (vs_types vs) k = Some t -> convert_to t v = Ok v' ->
  var_store vs k v = Ok vs' -> var_fetch vs' k = Ok (if is_default v' then zero_of t else v').
Proof.
  intros vs k v vs' t v' Hk Hc H. unfold var_store in H. rewrite Hk, Hc in H. cbn [bind] in H.
  unfold var_fetch. rewrite (update_val_get _ _ _ _ H k), str_eqb_refl.
  apply update_val_inv in H. destruct H as [-> _]. cbn [vs_types]. rewrite Hk.
  destruct (is_default v'); reflexivity.
Qed.
Print Assumptions C06_store_then_fetch.

Theorem C06_store_frame : forall vs k v vs' k', var_store vs k v = Ok vs' -> k' <> k -> var_fetch vs' k' = var_fetch vs k'.
Proof. exact store_frame. Qed.
Print Assumptions C06_store_frame.

Theorem C06_deftype_frame : forall vs t from to vs' cf ct f' o' k v, var_def vs t from to = Ok vs' ->
  to_str from = Ok (cf :: f') -> to_str to = Ok (ct :: o') -> In (k, v) (vs_vars vs) ->
  (suffixed k = true \/ match after_last_dot k k with c :: _ => (cf <=? c) && (c <=? ct) | [] => false end = false) ->
  In (k, v) (vs_vars vs').
Proof.
  intros vs t from to vs' cf ct f' o' k v H Hf Ho Hin Hout. unfold var_def in H. rewrite Hf, Ho in H. cbn in H.
  destruct (is_upper cf && is_upper ct); cbn in H; [| discriminate]. injection H as <-. cbn.
  apply filter_In. split; [exact Hin |]. cbn. fold (suffixed k).
  destruct Hout as [-> | ->]; [reflexivity | rewrite orb_true_r; reflexivity].
Qed.
Print Assumptions C06_deftype_frame.

(* an element is reachable exactly with subscripts 0..bound in each declared dimension (bound 10 when first used undeclared) *)
Theorem C06_array_bounds : forall vs name arr vs1 k, build_array_key vs name arr = (vs1, Ok k) ->
  exists req dim,
    subscripts arr = Ok req /\ k = array_key name req
    /\ alist_get name (vs_dims vs1) = Some dim
    /\ (alist_get name (vs_dims vs) = None -> dim = repeat 10%Z (List.length req))
    /\ (forall d, alist_get name (vs_dims vs) = Some d -> dim = d /\ vs1 = vs)
    /\ Forall (fun r => 0 <= r)%Z req /\ Forall2 (fun r d => r <= d)%Z req dim.
Proof.
  intros vs name arr vs1 k H.
  destruct (subscripts arr) as [req | | |] eqn:Es; try (unfold build_array_key in H; rewrite Es in H; discriminate).
  remember (match alist_get name (vs_dims vs) with Some d => d | None => repeat 10%Z (List.length req) end) as dim eqn:Hdim.
  rewrite (build_array_key_eq _ _ _ _ _ Es Hdim) in H. exists req, dim.
  destruct (negb (Nat.eqb (List.length dim) (List.length req))) eqn:El; [discriminate |].
  destruct (negb (all_le req dim)) eqn:Ea; [discriminate |].
  injection H as <- <-. apply negb_false_iff in El, Ea. apply Nat.eqb_eq in El.
  split; [reflexivity |]. split; [reflexivity |].
  split; [destruct (alist_get name (vs_dims vs)) eqn:Ed; [congruence | cbn [vs_dims]; rewrite alist_get_set, str_eqb_refl; reflexivity] |].
  split; [intros E; rewrite E in Hdim; exact Hdim |].
  split; [intros d E; rewrite E in Hdim |- *; split; [exact Hdim | reflexivity] |].
  split; [exact (subscripts_nonneg _ _ Es) | apply all_le_spec; [lia | exact Ea]].
Qed.
Print Assumptions C06_array_bounds.

(* anything else is SUBSCRIPT OUT OF RANGE (or the conversion error of the subscript itself) *)
Theorem C06_array_rejects : forall vs name arr req dim,
  subscripts arr = Ok req ->
  dim = match alist_get name (vs_dims vs) with Some d => d | None => repeat 10%Z (List.length req) end ->
  (List.length dim <> List.length req \/ exists i r d, nth_error req i = Some r /\ nth_error dim i = Some d /\ (d < r)%Z) ->
  snd (build_array_key vs name arr) = err E_Subscript.
Proof.
  intros vs name arr req dim Es Hd Hbad. rewrite (build_array_key_eq _ _ _ _ _ Es Hd). cbn [snd].
  destruct (Nat.eqb_spec (List.length dim) (List.length req)) as [El | El]; [| reflexivity].
  destruct Hbad as [Hbad | (i & r & d & Hr & Hdm & Hlt)]; [contradiction |].
  rewrite (all_le_nth _ _ _ _ _ Hr Hdm Hlt). reflexivity.
Qed.
Print Assumptions C06_array_rejects.

Theorem C06_dim_twice : forall vs name arr d, alist_get name (vs_dims vs) = Some d -> var_dimension vs name arr = err E_Redim.
Proof. intros vs name arr d H. unfold var_dimension. rewrite H. reflexivity. Qed.
Print Assumptions C06_dim_twice.

Theorem C06_erase_then_dim : forall vs name vs', var_erase vs name = Ok vs' -> alist_get name (vs_dims vs') = None.
Proof.
  intros vs name vs' H. unfold var_erase in H. destruct (alist_get name (vs_dims vs)); [| discriminate].
  injection H as <-. cbn. rewrite alist_get_remove, str_eqb_refl. reflexivity.
Qed.
Print Assumptions C06_erase_then_dim.

Theorem C06_array_key_inj : forall name name' idx idx', comma_free name -> comma_free name' ->
  Forall (fun i => 0 <= i)%Z idx -> Forall (fun i => 0 <= i)%Z idx' ->
  array_key name idx = array_key name' idx' -> name = name' /\ idx = idx'.
Proof.
  intros name name' idx idx' Hn Hn' H1 H2 E. rewrite !array_key_rest in E.
  apply split_at_first in E; try assumption. destruct E as [<- E]. split; [reflexivity |].
  exact (key_rest_inj name Hn idx idx' H1 H2 E).
Qed.
Print Assumptions C06_array_key_inj.

Theorem C06_array_key_not_scalar : forall name idx k, comma_free k -> array_key name idx <> k.
Proof. intros name idx k Hk E. apply Hk. rewrite <- E, array_key_rest. apply in_or_app. right. left. reflexivity. Qed.
Print Assumptions C06_array_key_not_scalar.

(* SWAP: the code SWAP a,b compiles to, run on the VM *)
From BL Require Import Proofs.ExprCompile Proofs.Swap.

Theorem C06_swap_exchanges : forall O h a b r va vb vs1 vs2, r_slen r + 2 <= MAX_POOL ->
  var_fetch (r_vars r) a = Ok va -> var_fetch (r_vars r) b = Ok vb -> same_kind vb va = true ->
  var_store (r_vars r) b va = Ok vs1 -> var_store vs1 a vb = Ok vs2 ->
  run_ops O h (swap_code a b) r = (set_vars r vs2, Ok tt).
Proof.
  intros O h a b r va vb vs1 vs2 Hs Ha Hb Hk H1 H2. rewrite (swap_operands O h a b r va vb Hs Ha Hb).
  rewrite (run_cons O h _ _ _ (pushed (pushed r vb) va)) by (rewrite (exec_swap O h r va vb Hs), Hk; reflexivity).
  rewrite (run_cons O h _ _ _ _ (exec_pop_var O h b (pushed r vb) va vs1 H1)).
  rewrite (run_cons O h _ _ (set_vars (pushed r vb) vs1) _ (exec_pop_var O h a (set_vars r vs1) vb vs2 H2)). reflexivity.
Qed.
Print Assumptions C06_swap_exchanges.

Theorem C06_swap_mixed_rejected : forall O h a b r va vb, r_slen r + 2 <= MAX_POOL ->
  var_fetch (r_vars r) a = Ok va -> var_fetch (r_vars r) b = Ok vb -> same_kind vb va = false ->
  snd (run_ops O h (swap_code a b) r) = err E_TypeMismatch /\ r_vars (fst (run_ops O h (swap_code a b) r)) = r_vars r.
Proof.
  intros O h a b r va vb Hs Ha Hb Hk. rewrite (swap_operands O h a b r va vb Hs Ha Hb).
  split; cbn [run_ops]; unfold rbind at 1; rewrite (exec_swap O h r va vb Hs), Hk; reflexivity.
Qed.
Print Assumptions C06_swap_mixed_rejected.

(* non-vacuity: a typed store with three scalars; DEFINT A-B drops the Single in A, keeps A! and Z *)
Definition C06_witness_run : option (res val * res val * res val) :=
  match var_store vars_empty (s2l "A"%string) (VSng 1069547520) with            (* A = 1.5 *)
  | Ok vs1 => match var_store vs1 (s2l "A!"%string) (VSng 1069547520) with
    | Ok vs2 => match var_store vs2 (s2l "Z"%string) (VInt 7) with
      | Ok vs3 => match var_def vs3 TInt (VStr (s2l "A"%string)) (VStr (s2l "B"%string)) with
        | Ok vs4 => Some (var_fetch vs4 (s2l "A"%string), var_fetch vs4 (s2l "A!"%string), var_fetch vs4 (s2l "Z"%string))
        | _ => None end
      | _ => None end
    | _ => None end
  | _ => None end.
Example C06_witness : C06_witness_run = Some (Ok (VInt 0), Ok (VSng 1069547520), Ok (VSng 1088421888)).
Proof. vm_compute. reflexivity. Qed.
