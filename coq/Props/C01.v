(* C01 -- compiled execution follows the documented semantics.
   What is proved.
   (a) Expressions (Proofs/ExprCompile.v): for expressions over literals, scalar variables, unary minus, NOT and all
   binary operators -- any depth -- the code the compiler emits is the postfix form; the VM's own fetch loop runs that
   code like a straight-line interpreter and leaves the program counter behind it; the result on top of the stack
   (or the error) is the one the reference semantics Spec/Sem.v computes for the same variable store, and nothing else
   in the machine state changes.  Plus the ON dispatch arithmetic and LET to a scalar variable.
   (b) Control flow and output (Proofs/Flow.v .. Flow4.v): for whole programs, of any size, made of LET (scalar variable,
   expression as in (a)), PRINT (items as in (a)), GOTO, ON..GOTO and END, with ascending line numbers and END as the last
   statement: what the code generator
   and the linker produce is an explicit layout (line -> address, statement -> address, every branch slot patched to the
   first instruction of its target line), and the VM's fetch loop, started on that code with tracing off, follows the
   reference semantics statement by statement: if Spec/Sem.run says the run prints the texts t1..tk and reaches END with
   variable store V, the VM returns exactly those texts, in that order, and then stops (EvStopped) with variable store V; if
   it says error c after t1..tk, the VM prints t1..tk and reports error c (C01_compiled_program_follows_semantics;
   the statement-level simulation is C01_statement_simulation).  The parser's own line-number literals meet the premise on
   branch targets (C01_line_literal_ok: every line number 0..65529, from Flocq's specification of binary32); Proofs/Flow4.v holds a parsed program that meets every premise.
   (c) FOR and NEXT: the instruction sequences they compile to, and that the FOR sequence on the VM assigns the start value
   before it evaluates limit and step (last part of this file).
   What is NOT proved: the simulation for GOSUB/RETURN, FOR/NEXT at run time, WHILE/WEND, IF, arrays, function calls (TAB, SPC), TRON, and the line
   number attached to an error.  There the deciding work is the differential run of generated programs against Spec/Sem.v. *)
From BL Require Import Base.Prelude Mach.Val Mach.Func Mach.Var Lang.Token Lang.Ast Mach.Compile Mach.Runtime Spec.Sem Proofs.Slicing Proofs.ExprCompile
  Proofs.Flow Proofs.Flow2 Proofs.Flow3 Proofs.Flow4 Proofs.StmtShape.
From Coq Require Import Lia.
Local Open Scope N_scope.

(* ON: selector 0 or beyond the list falls through past the jump table; 1..len selects an entry *)
Theorem C01_on_dispatch : forall (O : oracle) r sel len rest,
  r_stack r = VInt sel :: VInt len :: rest -> (0 <= sel)%Z -> (0 <= len)%Z ->
  (-32768 <= sel <= 32767)%Z -> (-32768 <= len <= 32767)%Z ->
  do_on r = (set_pc (set_stack_len r rest (r_slen r - 1 - 1))
               (if ((sel =? 0) || (len <? sel))%Z then r_pc r + Z.to_N len else r_pc r + Z.to_N (sel - 1)), Ok tt).
Proof.
  intros O r sel len rest Hs H1 H2 _ _. rewrite (do_on_run r (VInt sel) len rest Hs H2). cbn [to_i16].
  destruct (Z.ltb_spec sel 0); [lia |]. cbv zeta. destruct ((sel =? 0) || (len <? sel))%Z; reflexivity.
Qed.
Print Assumptions C01_on_dispatch.

(* code generation: a pure expression compiles to its postfix form, with no symbols, no DATA and no errors *)
Theorem C01_expression_code_is_postfix : forall e, pure e = true -> lenN (postfix e) <= MAX_POOL ->
  snd (fst (cg_expr e)) = plain (postfix e) /\ snd (cg_expr e) = [].
Proof. exact cg_expr_postfix. Qed.
Print Assumptions C01_expression_code_is_postfix.

(* the VM: postfix code pushes the value of the expression and changes nothing else; errors are the expression's errors *)
Theorem C01_postfix_runs : forall O h e r, pure e = true -> r_slen r + lenN (postfix e) <= MAX_POOL ->
  match eval_pure O (r_vars r) e with
  | Ok v => run_ops O h (postfix e) r = (pushed r v, Ok tt)
  | Err er => snd (run_ops O h (postfix e) r) = Err er
  | Panic => snd (run_ops O h (postfix e) r) = Panic
  | Hang => snd (run_ops O h (postfix e) r) = Hang
  end.
Proof. exact run_postfix. Qed.
Print Assumptions C01_postfix_runs.

(* ... through the model's own fetch-and-dispatch loop, with the code anywhere in program memory *)
Theorem C01_fetch_loop_runs_code : forall O code h r, forallb expr_op code = true -> r_tron r = false -> code_at r (r_pc r) code ->
  snd (exec_loop_x O (length code) h r) = no_event (snd (run_ops O h code r)) /\
  (forall u, snd (run_ops O h code r) = Ok u ->
     fst (exec_loop_x O (length code) h r) = set_pc (fst (run_ops O h code r)) (r_pc r + lenN code)).
Proof.
  intros O code h r Hops Htr Hat. pose proof (loop_code O code 0 h r (r_pc r) Hops Htr Hat) as H.
  replace (set_pc r (r_pc r)) with r in H by (destruct r; reflexivity). rewrite Nat.add_0_r in H.
  destruct (run_ops O h code r) as [r1 [u | er | |]]; cbn [fst snd no_event].
  1: rewrite H; split; [reflexivity | intros _ _; reflexivity].
  all: split; [exact H | discriminate].
Qed.
Print Assumptions C01_fetch_loop_runs_code.

Theorem C01_postfix_is_expression_code : forall e, pure e = true -> forallb expr_op (postfix e) = true.
Proof. exact postfix_expr_ops. Qed.
Print Assumptions C01_postfix_is_expression_code.

(* the reference semantics computes the same value *)
Theorem C01_sem_eval_pure : forall O fuel e s line, pure e = true -> (depth e < fuel)%nat -> s_locals s = [] ->
  eval O fuel line e s = (s, of_res (eval_pure O (s_vars s) e)).
Proof. exact sem_eval_pure. Qed.
Print Assumptions C01_sem_eval_pure.

(* together: compiled code on the VM against the reference semantics *)
Theorem C01_compiled_expression_correct : forall O h e r s line,
  pure e = true -> lenN (postfix e) <= MAX_POOL -> r_slen r + lenN (postfix e) <= MAX_POOL ->
  s_locals s = [] -> s_vars s = r_vars r ->
  let code := l_ops (snd (fst (cg_expr e))) in
  snd (cg_expr e) = [] /\
  match snd (eval O (S (depth e)) line e s) with
  | EvOk v => run_ops O h code r = (pushed r v, Ok tt)
  | EvErr c => exists er, snd (run_ops O h code r) = Err er /\ ecode er = c
  | EvUndef => True
  end.
Proof.
  intros O h e r s line Hp Hl Hs Hloc Hv. destruct (cg_expr_postfix e Hp Hl) as [E1 E2]. cbn zeta. rewrite E1. cbn [plain l_ops].
  split; [exact E2 |]. rewrite (sem_eval_pure O (S (depth e)) e s line Hp ltac:(lia) Hloc). cbn [snd]. rewrite Hv.
  pose proof (run_postfix O h e r Hp Hs) as Hrun.
  destruct (eval_pure O (r_vars r) e) as [v | er | |]; cbn [of_res]; [exact Hrun | exists er; split; [exact Hrun | reflexivity] | exact I | exact I].
Qed.
Print Assumptions C01_compiled_expression_correct.

Theorem C01_let_code : forall c cv i e, pure e = true -> builtin_arity (ident_str i) = None ->
  lenN (let_code i e) <= MAX_POOL ->
  snd (fst (cg_stmt (SLet c (VUnary cv i) e))) = plain (let_code i e) /\ snd (cg_stmt (SLet c (VUnary cv i) e)) = [].
Proof. exact cg_let_shape. Qed.
Print Assumptions C01_let_code.

(* the compiled assignment leaves exactly the variable store the reference semantics prescribes, the stack as it was *)
Theorem C01_compiled_let_correct : forall O h line cv i e r s vs,
  pure e = true -> r_slen r + lenN (postfix e) <= MAX_POOL -> s_locals s = [] -> s_vars s = r_vars r ->
  (sdo x <~ eval O (S (depth e)) line e ;; assign O (S (depth e)) line (VUnary cv i) x) s = (with_vars s vs, EvOk tt) ->
  run_ops O h (let_code i e) r = (set_vars r vs, Ok tt).
Proof.
  intros O h line cv i e r s vs Hp Hs Hloc Hv Hsem.
  rewrite (sem_let O (S (depth e)) line cv i e s Hp ltac:(lia) Hloc) in Hsem. rewrite Hv in Hsem.
  pose proof (run_let O h i e r Hp Hs) as Hrun.
  destruct (eval_pure O (r_vars r) e) as [v | er | |]; try discriminate. cbn [bind] in Hrun.
  destruct (var_store (r_vars r) (ident_str i) v) as [vs' | er | |]; try discriminate.
  apply (f_equal (fun x => s_vars (fst x))) in Hsem. cbn [fst s_vars with_vars] in Hsem. subst vs'. exact Hrun.
Qed.
Print Assumptions C01_compiled_let_correct.

Theorem C01_run_let : forall O h i e r, pure e = true -> r_slen r + lenN (postfix e) <= MAX_POOL ->
  match eval_pure O (r_vars r) e with
  | Ok v =>
      match var_store (r_vars r) (ident_str i) v with
      | Ok vs => run_ops O h (let_code i e) r = (set_vars r vs, Ok tt)
      | Err er => snd (run_ops O h (let_code i e) r) = Err er
      | Panic => snd (run_ops O h (let_code i e) r) = Panic
      | Hang => snd (run_ops O h (let_code i e) r) = Hang
      end
  | Err er => snd (run_ops O h (let_code i e) r) = Err er
  | Panic => snd (run_ops O h (let_code i e) r) = Panic
  | Hang => snd (run_ops O h (let_code i e) r) = Hang
  end.
Proof. intros O h i e r Hp Hs. pose proof (run_let O h i e r Hp Hs) as H. destruct (eval_pure O (r_vars r) e); exact H. Qed.
Print Assumptions C01_run_let.

(* control flow, part 1 (Proofs/Flow.v): what compilation produces for programs made of LET, PRINT, GOTO, ON..GOTO and END *)

(* each statement of the fragment compiles to its piece: code with placeholder jumps plus references to target lines *)
Theorem C01_statement_pieces : forall s p, fstmt s p -> lenN (pc_ops p) <= MAX_POOL ->
  exists c, cg_stmt s = ((c, raw (pc_cur p) (pc_ops p) (pc_refs p)), []).
Proof. exact fstmt_cg. Qed.
Print Assumptions C01_statement_pieces.

(* a whole program of such lines compiles, without errors, to the layout: line symbols at the start addresses, the pieces
   one behind the other, every reference recorded at its absolute address *)
Theorem C01_compile_is_layout : forall lines plines dp,
  Forall2 (fun l pl => fst l = fst pl /\ Forall2 fstmt (snd l) (snd pl)) lines plines ->
  lenN (l_ops (layout plines dp)) <= MAX_POOL ->
  pg_link (compile_asts lines dp) = layout plines dp /\ pg_errors (compile_asts lines dp) = []
  /\ pg_direct (compile_asts lines dp) = 0 /\ pg_ind_errors (compile_asts lines dp) = [].
Proof. exact compile_is_layout. Qed.
Print Assumptions C01_compile_is_layout.

(* control flow, part 2 (Proofs/Flow2.v): the layout made explicit, and what linking does to it *)

(* the symbol of a line is the address where its code starts; a statement's code sits behind the code of the statements
   before it; its references are recorded at their absolute addresses *)
Theorem C01_line_address : forall before n ps after lo, ascending (before ++ (n, ps) :: after) lo ->
  zassoc_get (Z.of_N n) (line_syms (before ++ (n, ps) :: after) 0) = Some (lenN (prog_ops before), 0).
Proof. exact line_address. Qed.
Print Assumptions C01_line_address.

Theorem C01_piece_address : forall before n pb p pa after i op, nth_error (pc_ops p) i = Some op ->
  nthN (prog_ops (before ++ (n, pb ++ p :: pa) :: after)) (lenN (prog_ops before) + lenN (flat_map pc_ops pb) + N.of_nat i) = Some op.
Proof. exact piece_address. Qed.
Print Assumptions C01_piece_address.

(* linking a compiled program of the fragment that ends in END: the code is the layout's code with every recorded
   reference patched through the symbol table, and the direct-mode area starts right behind it *)
Theorem C01_link_layout : forall P pls dp lo, pg_link P = layout pls dp -> pg_direct P = 0 -> ascending pls lo ->
  last_is_end (prog_ops pls) = true -> last_nonempty pls ->
  l_ops (pg_link (program_link P)) = final_ops pls /\ pg_direct (program_link P) = lenN (final_ops pls)
  /\ l_data (pg_link (program_link P)) = [] /\ l_data_pos (pg_link (program_link P)) = dp.
Proof. exact link_layout. Qed.
Print Assumptions C01_link_layout.

(* a GOTO / ON..GOTO slot holds, after linking, a jump to the first instruction of the target line; everything else is untouched *)
Theorem C01_linked_jump : forall pls a c n' s', good_prog pls ->
  In (a, (c, Z.of_N n')) (line_refs pls 0) -> nthN (prog_ops pls) a = Some (OpJump 0) ->
  zassoc_get (Z.of_N n') (line_syms pls 0) = Some (s', 0) ->
  nthN (final_ops pls) a = Some (OpJump s').
Proof. exact final_jump. Qed.
Print Assumptions C01_linked_jump.

Theorem C01_linked_other : forall pls a, ~ In a (map fst (line_refs pls 0)) -> nthN (final_ops pls) a = nthN (prog_ops pls) a.
Proof. exact final_other. Qed.
Print Assumptions C01_linked_other.

(* control flow, parts 3 and 4 (Proofs/Flow3.v, Flow4.v): the VM on the linked code follows the reference semantics *)

(* every slot the linker patches holds a placeholder jump, so every other instruction survives linking unchanged *)
Theorem C01_linking_keeps_code : forall pls a op, good_prog pls -> nthN (prog_ops pls) a = Some op -> op <> OpJump 0 ->
  nthN (final_ops pls) a = Some op.
Proof. exact final_keeps. Qed.
Print Assumptions C01_linking_keeps_code.

(* the parser writes the target n of a branch as the Single f32_of_Z n: the compiler's reading of that literal and the
   reference reading both give n, for every line number there is (Proofs/FloatToInt.v: exact conversion, floor, comparison
   and truncation of binary32 integers below 2^24, from Flocq's correctness theorems -- no enumeration) *)
Theorem C01_line_literal_ok : forall n, n <= 65529 ->
  target_is (Floats.f32_of_Z (Z.of_N n)) n /\ Z.to_N (Floats.f32_to_Z (Floats.f32_of_Z (Z.of_N n))) = n.
Proof. exact line_literal_ok. Qed.
Print Assumptions C01_line_literal_ok.

(* one statement: whatever the reference semantics does -- print texts and pass control to a continuation, end, fail with
   error c -- the VM, from the related state, does in finitely many budget-bounded calls of its fetch loop, returning the
   same texts in the same order, and arrives in a related state *)
Theorem C01_statement_simulation : forall O srcl pls lo sl,
  Forall2 lmatch srcl pls -> ascending pls lo -> last_is_end (prog_ops pls) = true -> last_nonempty pls ->
  sl + lenN (prog_ops pls) <= MAX_POOL ->
  forall sb n sd s sr sa pb pd p pr pa st r,
  srcl = sb ++ (n, sd ++ s :: sr) :: sa -> pls = pb ++ (n, pd ++ p :: pr) :: pa ->
  Forall2 lmatch sb pb -> Forall2 gstmt sd pd -> gstmt s p -> Forall2 gstmt sr pr -> Forall2 lmatch sa pa ->
  r_pc r = lenN (prog_ops pb) + lenN (flat_map pc_ops pd) -> sfacts pls sl st r ->
  outcome O srcl pls sl st (exec O srcl 200 n s (tag_line n sr, n) st) r.
Proof.
  intros O srcl pls lo sl Hm Ha He Hn Hfit sb n sd s sr sa pb pd p pr pa st r Es Ep Hb Hd Hs Hr Hsa Hpc.
  apply (stmt_step O srcl pls lo sl Hm Ha He Hn Hfit). rewrite Hpc.
  exact (at_pos_intro srcl pls sb n sd (s :: sr) sa pb pd (p :: pr) pa Es Ep Hb Hd (Forall2_cons s p Hs Hr) Hsa).
Qed.
Print Assumptions C01_statement_simulation.

(* whole runs, any number of steps *)
Theorem C01_vm_follows_semantics : forall O srcl pls lo sl,
  Forall2 lmatch srcl pls -> ascending pls lo -> last_is_end (prog_ops pls) = true -> last_nonempty pls ->
  sl + lenN (prog_ops pls) <= MAX_POOL ->
  forall fuel k st r, Rel srcl pls sl k st r -> final O st (run O srcl fuel k st) r.
Proof. exact vm_follows_sem. Qed.
Print Assumptions C01_vm_follows_semantics.

(* from the parsed lines: compile, link, start at the first line with empty variables and the cursor at the left margin.
   vm_steps r outs r1: the VM gets from r to r1 by calls of its fetch loop (any budgets), and the PRINT events these calls
   return carry exactly the texts outs, in order; printed st st' outs: the reference semantics printed exactly outs
   between st and st' *)
Theorem C01_compiled_program_follows_semantics : forall O srcl pls dp lo n ss rest inputs fuel r,
  Forall2 lmatch srcl pls -> ascending pls lo -> last_is_end (prog_ops pls) = true -> last_nonempty pls ->
  r_slen r + lenN (prog_ops pls) <= MAX_POOL ->
  srcl = (n, ss) :: rest ->
  r_prog r = program_link (compile_asts srcl dp) -> r_pc r = 0 -> r_vars r = vars_empty -> r_tron r = false -> r_col r = 0 ->
  match run O srcl fuel (tag_line n ss, n) (sem_start false inputs) with
  | (st', HEnd) => exists outs r1 m r', vm_steps O r outs r1 /\ printed (sem_start false inputs) st' outs
                     /\ exec_loop_x O m false r1 = (r', Ok (Some EvStopped)) /\ r_vars r' = s_vars st'
  | (st', HError c _) => exists outs r1 m er, vm_steps O r outs r1 /\ printed (sem_start false inputs) st' outs
                           /\ snd (exec_loop_x O m false r1) = Err er /\ ecode er = c
  | _ => True
  end.
Proof. exact compiled_program_follows_semantics. Qed.
Print Assumptions C01_compiled_program_follows_semantics.

(* the premises are met by a program the model's own lexer and parser produce, and on it the conclusion is not the trivial
   branch: the VM prints " 2 ", "X" and a newline, then stops at END *)
Theorem C01_demo_program : map parse_src demo_text = map Some demo_src
  /\ (Forall2 lmatch demo_src demo_pieces /\ ascending demo_pieces 0 /\ last_is_end (prog_ops demo_pieces) = true
      /\ last_nonempty demo_pieces /\ 0 + lenN (prog_ops demo_pieces) <= MAX_POOL)
  /\ (forall O r dp, r_prog r = program_link (compile_asts demo_src dp) -> r_pc r = 0 -> r_vars r = vars_empty ->
        r_tron r = false -> r_slen r = 0 -> r_col r = 0 ->
        exists r1 m r', vm_steps O r [[32; 50; 32]; [88]; [10]] r1 /\ exec_loop_x O m false r1 = (r', Ok (Some EvStopped))).
Proof. exact (conj demo_is_parsed (conj demo_meets_premises demo_vm_prints)). Qed.
Print Assumptions C01_demo_program.

(* FOR and NEXT: the emitted sequences and what the FOR sequence does (Proofs/StmtShape.v) *)

(* FOR v = e1 TO e2 STEP e3 compiles to: e1, store into v, e2, e3, the name of v, the loop address (0 until the linker
   patches it): the order in which the manual says they are evaluated *)
Theorem C01_for_statement_code : forall c vc v e1 e2 e3,
  pure e1 = true -> pure e2 = true -> pure e3 = true -> builtin_arity (ident_str v) = None ->
  let code := postfix e1 ++ [OpPop (ident_str v)] ++ postfix e2 ++ postfix e3 ++ [OpLiteral (VStr (ident_str v)); OpLiteral (VNext 0)] in
  lenN code <= MAX_POOL ->
  let s := SFor c (VUnary vc v) e1 e2 e3 in
  l_ops (snd (fst (cg_stmt s))) = code /\ l_data (snd (fst (cg_stmt s))) = [] /\ snd (cg_stmt s) = [].
Proof.
  intros c vc v e1 e2 e3 H1 H2 H3 Hb. cbn zeta. intros Hl.
  pose proof Hl as Hl'. rewrite !lenN_app in Hl'.
  destruct (cg_expr_postfix e1 H1 ltac:(lia)) as [A1 B1]. destruct (cg_expr_postfix e2 H2 ltac:(lia)) as [A2 B2].
  destruct (cg_expr_postfix e3 H3 ltac:(lia)) as [A3 B3]. clear Hl'.
  cbn [cg_stmt cg_var]. destruct (cg_expr e1) as [f1 x1]. destruct (cg_expr e2) as [f2 x2]. destruct (cg_expr e3) as [f3 x3].
  cbn [fst snd] in *. subst x1 x2 x3. rewrite A1, A2, A3. cbn [app].
  match goal with |- context [run_frag ?m] => assert (Hm : emits m (postfix e1 ++ [OpPop (ident_str v)] ++ postfix e2 ++ postfix e3 ++
      [OpLiteral (VStr (ident_str v))] ++ [OpLiteral (VNext 0)] ++ [])) end.
  { apply emits_bind; [apply emits_append_plain | intros _]. apply emits_bind; [apply emits_pop_unary; exact Hb | intros _].
    apply emits_bind; [apply emits_append_plain | intros _]. apply emits_bind; [apply emits_append_plain | intros _].
    cbn [vi_name]. apply emits_bind; [apply emits_push | intros _]. apply emits_bind; [apply emits_push_for | intros _]. apply emits_ret. }
  cbn [app] in Hm.
  destruct (run_frag_emits _ _ Hm Hl) as (R1 & R2 & R3).
  match goal with |- context [run_frag ?m] => destruct (run_frag m) as [fr er] end. cbn [fst snd] in *. subst er. auto.
Qed.
Print Assumptions C01_for_statement_code.

(* on the VM: the limit and the step are evaluated in the store in which the loop variable already holds the start value
   (FOR I=1 TO I+2 runs to 3 whatever I was), and the frame limit / step / name / loop address is what is left on the stack *)
Theorem C01_for_assigns_before_limit_and_step : forall O h i e1 e2 e3 a r x vs y z,
  pure e1 = true -> pure e2 = true -> pure e3 = true ->
  r_slen r + lenN (postfix e1) + lenN (postfix e2) + lenN (postfix e3) + 4 <= MAX_POOL ->
  eval_pure O (r_vars r) e1 = Ok x -> var_store (r_vars r) (ident_str i) x = Ok vs ->
  eval_pure O vs e2 = Ok y -> eval_pure O vs e3 = Ok z ->
  run_ops O h (for_code i e1 e2 e3 a) r
  = (set_stack_len (set_vars r vs) (VNext a :: VStr (ident_str i) :: z :: y :: r_stack r) (r_slen r + 4), Ok tt).
Proof.
  intros O h i e1 e2 e3 a r x vs y z H1 H2 H3 Hs E1 Ev E2 E3. unfold for_code.
  rewrite run_ops_app. pose proof (run_let O h i e1 r H1 ltac:(lia)) as L. rewrite E1 in L. cbn [bind] in L. rewrite Ev in L. rewrite L.
  rewrite run_ops_app. pose proof (run_postfix O h e2 (set_vars r vs) H2) as P2. cbn [r_slen r_vars set_vars] in P2.
  rewrite E2 in P2. rewrite P2 by lia.
  change (pushed (set_vars r vs) y) with (set_stack_len (set_vars r vs) (y :: r_stack r) (r_slen r + 1)).
  rewrite run_ops_app. pose proof (run_postfix O h e3 (set_stack_len (set_vars r vs) (y :: r_stack r) (r_slen r + 1)) H3) as P3.
  cbn [r_slen r_vars set_vars set_stack_len] in P3. rewrite E3 in P3. rewrite P3 by lia.
  rewrite pushed_set, run_literal by (cbn [r_slen set_stack_len]; lia).
  rewrite pushed_set, run_literal by (cbn [r_slen set_stack_len]; lia).
  rewrite pushed_set. cbn [run_ops]. unfold rret. replace (r_slen r + 1 + 1 + 1 + 1) with (r_slen r + 4) by lia. reflexivity.
Qed.
Print Assumptions C01_for_assigns_before_limit_and_step.

(* NEXT with a list closes the loops in the order written: one NEXT instruction per name, first name first *)
Theorem C01_next_statement_code : forall c (vs : list (col * ident)),
  (forall ci, In ci vs -> builtin_arity (ident_str (snd ci)) = None) ->
  let code := map (fun ci => OpNext (ident_str (snd ci))) vs in
  lenN code <= MAX_POOL ->
  let s := SNext c (map (fun ci => VUnary (fst ci) (snd ci)) vs) in
  l_ops (snd (fst (cg_stmt s))) = code /\ snd (cg_stmt s) = [].
Proof.
  intros c vs Hb. cbn zeta. intros Hl. cbn [cg_stmt].
  destruct (scalar_vars vs) as [Hv He]. rewrite Hv, He.
  rewrite (run_frag_appends _ c 0 (map (fun ci => OpNext (ident_str (snd ci))) vs) (fun _ => [])); [split; reflexivity | | exact Hl].
  appends_by ltac:(apply (appends_fold (fun v => ldo _ <~ test_for_built_in v false ;; l_push (OpNext (vi_name v))) (fun v => [OpNext (vi_name v)])
                            _ (lret tt) []);
                   [intros v Hi; apply in_map_iff in Hi; destruct Hi as (ci & <- & Hci); unfold test_for_built_in, scalar_item;
                    cbn [vi_name vi_len vi_col]; rewrite (Hb ci Hci); appends_seq |]).
  cbn [app]. rewrite app_nil_r, flat_map_single, map_map. reflexivity.
Qed.
Print Assumptions C01_next_statement_code.
