(* C03 -- no input can crash or wedge the interpreter.
   The lemmas are in Proofs/LexSteps.v, LexTotal.v (scanner) and Proofs/ParseSafe.v (parser).
   Proved for every source text, with no bound on its length: the scanner accepts it -- it returns tokens, never a BASIC
   error, never the model's Panic, and never runs out of the fuel that stands for "loops for ever" (Hang).  The loop that
   hung in the unrepaired crate (`PRINT 1EE`, commit 8079876) is number_loop; its progress lemma is the heart of the proof.
   Proved for every token list: the parser never answers with the model's Panic (at the end of this file).
   NOT proved here: that the parser's fuel suffices (Hang), and either fact for the code generator and the VM.  These are
   checked only by the differential runs (a model that returned Panic where the crate does not would show as a disagreement). *)
From BL Require Import Base.Prelude Lang.Token Mach.Func Lang.Lex Proofs.LexTotal.
From Coq Require Import String.
Local Open Scope N_scope.

Theorem C03_lex_total : forall src, exists num toks, lex src = Ok (num, toks).
Proof. exact lex_total. Qed.
Print Assumptions C03_lex_total.

(* the token loop needs at most one round per character *)
Theorem C03_lex_loop_fuel : forall fuel cs acc, (List.length cs < fuel)%nat -> exists ts, lex_loop fuel cs acc = Ok ts.
Proof.
  intros fuel cs acc Hf. rewrite lex_loop_scan. destruct (scan_total fuel cs Hf) as [ts ->]. exists (rev acc ++ ts). reflexivity.
Qed.
Print Assumptions C03_lex_loop_fuel.

(* number(): always a token and never a longer remainder; a strictly shorter one unless the first character is a dangling exponent letter *)
Theorem C03_number_progress : forall cs s d dec e,
  exists t rest, number_loop cs s d dec e = Ok (t, rest) /\ (List.length rest <= List.length cs)%nat
    /\ (forall c r, cs = c :: r -> c <> 69 -> c <> 101 -> c <> 68 -> c <> 100 -> (List.length rest < List.length cs)%nat).
Proof.
  intros cs s d dec e. destruct (number_loop_spec cs s d dec e) as (l & rest & H). exists (TLit l), rest. exact H.
Qed.
Print Assumptions C03_number_progress.

(* non-vacuity / regression: the inputs that hung the unrepaired scanner *)
Example C03_hang_inputs : (exists r, lex (s2l "PRINT 1EE"%string) = Ok r) /\ (exists r, lex (s2l "1E."%string) = Ok r) /\ (exists r, lex (s2l "A=1E!"%string) = Ok r).
Proof. repeat split; eexists; vm_compute; reflexivity. Qed.

(* the parser has no way to panic (Proofs/ParseSafe.v) *)
From BL Require Import Lang.Ast Lang.Parse Proofs.ParseSafe.
(* for every token list and line number the parser answers with a tree, a BASIC error or the fuel signal of the model -- the
   outcome that stands for a Rust panic does not occur in any of its twenty-odd functions (carried through the parser monad by
   a tactic; literal conversion checked separately) *)
Theorem C03_parse_never_panics : forall n toks, parse n toks <> Panic.
Proof.
  intros n toks H. destruct (parse_statements n toks) as [[e E] | E]; rewrite E in H; [discriminate H |].
  pose proof (tame_np _ (proj2 (proj2 (tame_stmts (parse_fuel toks))) false) (line_start toks)) as Hs.
  destruct (statements _ _ _) as [[l sx] | e | |]; try discriminate H. exact (Hs eq_refl).
Qed.
Print Assumptions C03_parse_never_panics.
