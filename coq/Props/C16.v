(* C16 -- spelling variants mean the same. *)
From Coq Require Import String.
From BL Require Import Base.Prelude Lang.Token Lang.Lex.
Local Open Scope N_scope.

(* the single-character aliases: ? scans to the PRINT token and ' to the REM token *)
Theorem C16_aliases : match_minutia 63 = Some (TWord WPrint) /\ match_minutia 39 = Some (TWord WRem2).
Proof. split; reflexivity. Qed.
Print Assumptions C16_aliases.

(* the operator merges, with any amount of blank space between the two characters *)
Theorem C16_merge_triples : forall n,
  triple_at (TOp OLt) (TWs n) (TOp OEq) = Some (TOp OLe) /\ triple_at (TOp OEq) (TWs n) (TOp OLt) = Some (TOp OLe)
  /\ triple_at (TOp OGt) (TWs n) (TOp OEq) = Some (TOp OGe) /\ triple_at (TOp OEq) (TWs n) (TOp OGt) = Some (TOp OGe)
  /\ triple_at (TOp OLt) (TWs n) (TOp OGt) = Some (TOp ONe) /\ triple_at (TOp OGt) (TWs n) (TOp OLt) = Some (TOp ONe)
  /\ triple_at (TIdent (IPlain (s2l "GO"%string))) (TWs n) (TWord WTo) = Some (TWord WGoto)
  /\ triple_at (TIdent (IPlain (s2l "GO"%string))) (TWs n) (TIdent (IPlain (s2l "SUB"%string))) = Some (TWord WGosub).
Proof. intros n. repeat split; reflexivity. Qed.
Print Assumptions C16_merge_triples.

Theorem C16_merge_doubles :
  double_at (TOp OEq) (TOp OLt) = Some (TOp OLe) /\ double_at (TOp OLt) (TOp OEq) = Some (TOp OLe)
  /\ double_at (TOp OEq) (TOp OGt) = Some (TOp OGe) /\ double_at (TOp OGt) (TOp OEq) = Some (TOp OGe)
  /\ double_at (TOp OLt) (TOp OGt) = Some (TOp ONe).
Proof. repeat split; reflexivity. Qed.
Print Assumptions C16_merge_doubles.

(* ... and the two tables are one table: for every pair of operator characters, what they merge to with blanks between them
   is what they merge to without.  (Before 638b3f3 this failed for > < against ><.) *)
Theorem C16_blank_inside_an_operator_is_optional : forall a c n,
  triple_at (TOp a) (TWs n) (TOp c) = double_at (TOp a) (TOp c).
Proof. intros a c n. destruct a; destruct c; reflexivity. Qed.
Print Assumptions C16_blank_inside_an_operator_is_optional.

From BL Require Import Mach.Func Proofs.CaseFold.

(* the word scanner (keywords, operators spelled as words, identifiers) gives the same tokens for texts that differ only
   in the case of their letters, and leaves remainders that again differ only in case *)
Theorem C16_word_scanner_ignores_case : forall cs cs' s digit pend, same_letters cs cs' ->
  fst (alpha_loop cs s digit pend) = fst (alpha_loop cs' s digit pend)
  /\ same_letters (snd (alpha_loop cs s digit pend)) (snd (alpha_loop cs' s digit pend)).
Proof. exact alpha_loop_case. Qed.
Print Assumptions C16_word_scanner_ignores_case.

(* characters with the same upper-case form fall into the same classes of the scanner *)
Theorem C16_classes_ignore_case : forall c d, to_upper c = to_upper d ->
  is_alpha c = is_alpha d /\ is_digit c = is_digit d /\ is_suffix_chr c = is_suffix_chr d /\ is_ws c = is_ws d.
Proof. exact to_upper_class. Qed.
Print Assumptions C16_classes_ignore_case.

From BL Require Import Proofs.CaseLex.

(* numbers: e/E and d/D are the same exponent letters, and a letter pushed back comes back in upper case *)
Theorem C16_numbers_ignore_case : forall cs cs' s d dec ex, same_letters cs cs' -> nc_head cs ->
  num_rel (number_loop cs s d dec ex) (number_loop cs' s d dec ex).
Proof. exact number_loop_case. Qed.
Print Assumptions C16_numbers_ignore_case.

(* the token loop: same tokens for texts that differ only in letter case, as long as no string literal and no remark is
   among them (inside those every character is kept as typed) *)
Theorem C16_token_loop_ignores_case : forall fuel cs cs' acc ts, same_letters cs cs' -> lex_loop fuel cs acc = Ok ts -> no_verbatim ts ->
  lex_loop fuel cs' acc = Ok ts.
Proof.
  intros fuel cs cs' acc ts H E Hnv. rewrite lex_loop_scan in *.
  destruct (scan fuel cs) as [ts' | | |] eqn:Es; try discriminate. injection E as <-.
  rewrite (scan_case fuel cs cs' ts' H Es); [reflexivity |]. intros t Hin. apply Hnv. apply in_or_app. right. exact Hin.
Qed.
Print Assumptions C16_token_loop_ignores_case.

(* the whole scanner, line-number prefix and post passes included *)
Theorem C16_lex_ignores_case : forall src src' ts, same_letters src src' -> raw_tokens src = Ok ts -> no_verbatim ts -> lex src' = lex src.
Proof.
  intros src src' ts H E Hnv. rewrite !lex_raw. destruct (split_case src src' H) as [En Eb]. rewrite <- En.
  assert (E' : raw_tokens src' = Ok ts).
  { rewrite raw_tokens_scan in *. rewrite <- (same_letters_length _ _ Eb). exact (scan_case _ _ _ _ Eb E Hnv). }
  rewrite E, E'. reflexivity.
Qed.
Print Assumptions C16_lex_ignores_case.

Theorem C16_case_example :
  lex (s2l "10 for i=1 to 1e3:print a1;&hff:next") = lex (s2l "10 FOR I=1 TO 1E3:PRINT A1;&HFF:NEXT")
  /\ same_letters (s2l "10 for i=1 to 1e3:print a1;&hff:next") (s2l "10 FOR I=1 TO 1E3:PRINT A1;&HFF:NEXT")
  /\ exists ts, raw_tokens (s2l "10 for i=1 to 1e3:print a1;&hff:next") = Ok ts /\ forallb (fun t => negb (verbatim t)) ts = true.
Proof. exact case_example. Qed.
Print Assumptions C16_case_example.

(* the model's spelling tables are the source's (Gen/SourceTables.v is regenerated from /repo/src by tools/tables.py on every
   run; Proofs/SourceTables.v) *)
From Coq Require Import List.
From BL Require Import Gen.SourceTables Proofs.SourceTables.

Theorem C16_reserved_words_are_the_sources : keyword_table = map (fun p => (s2l (fst p), snd p)) src_keywords.
Proof. exact keywords_are_the_sources. Qed.
Print Assumptions C16_reserved_words_are_the_sources.

Theorem C16_single_character_tokens_are_the_sources :
  map (fun p => match_minutia (fst p)) src_minutia = map (fun p => Some (snd p)) src_minutia
  /\ forall c, match_minutia c <> None -> In c (map fst src_minutia).
Proof. exact (conj minutia_arms_are_the_sources minutia_has_no_other_arm). Qed.
Print Assumptions C16_single_character_tokens_are_the_sources.

Theorem C16_listed_spellings_are_the_sources :
  (map (fun p => word_str (fst p)) src_word_display = map (fun p => s2l (snd p)) src_word_display /\ forall w, In w (map fst src_word_display))
  /\ (map (fun p => op_str (fst p)) src_op_display = map (fun p => s2l (snd p)) src_op_display /\ forall o, In o (map fst src_op_display))
  /\ (map (fun p => op_is_word (fst p)) src_op_is_word = map snd src_op_is_word /\ forall o, In o (map fst src_op_is_word)).
Proof. exact (conj word_display_is_the_sources (conj operator_display_is_the_sources operator_words_are_the_sources)). Qed.
Print Assumptions C16_listed_spellings_are_the_sources.

Theorem C16_operator_merges_are_the_sources : forall a c n,
  triple_at (TOp a) (TWs n) (TOp c) = option_map TOp (assoc_merge a c src_triple_merges)
  /\ double_at (TOp a) (TOp c) = option_map TOp (assoc_merge a c src_double_merges).
Proof. exact merges_are_the_sources. Qed.
Print Assumptions C16_operator_merges_are_the_sources.
