(* C05 -- listing is faithful.
   Proved: the listed text of line n, entered again, is line n again (for every n up to 65529 and every token list);
   reading back the decimal rendering of a number gives the number; a string literal's payload is copied character for
   character; a remark line (' , or REM before a character that ends a word), entered and listed, is the same text less its
   trailing blanks, and that listing lists identically (Proofs/RemarkText.v); & constants list as their source text and
   that text scans back to the same constant (Proofs/RadixText.v).
   NOT proved: for other lines, that the listed tokens lex back to the same tokens / the same AST (the fixed-point and
   same-meaning halves).  Those are decided by the C05 monitor on the implementation: exhaustively for all strings over
   the 25-symbol lexical alphabet up to the tier's length, and on generated lines. *)
From Coq Require Import String.
From BL Require Import Base.Prelude Lang.Token Lang.Lex Mach.Listing Proofs.DecN Proofs.LexTotal Proofs.ListNumber.
Local Open Scope N_scope.

(* a string literal's payload is copied from the source character for character, up to the closing quote *)
Theorem C05_string_payload : forall body rest, ~ In 34 body ->
  string_loop (body ++ 34 :: rest) [] = (TLit (LStr body), rest).
Proof.
  intros body rest H.
  assert (G : forall acc, string_loop (body ++ 34 :: rest) acc = (TLit (LStr (rev acc ++ body)), rest)).
  { induction body as [| c b IH]; intros acc; cbn.
    - rewrite app_nil_r. reflexivity.
    - destruct (N.eqb_spec c 34) as [-> | Hne]; [exfalso; apply H; left; reflexivity |].
      rewrite IH by (intros Hin; apply H; right; exact Hin).
      cbn. rewrite <- app_assoc. reflexivity. }
  exact (G []).
Qed.
Print Assumptions C05_string_payload.

(* through lex: the listed text of a stored line has the same number *)
Theorem C05_listed_line_keeps_number : forall n toks, n <= 65529 ->
  exists toks', lex (line_to_string (Some n, toks)) = Ok (Some n, toks').
Proof.
  intros n toks Hn. unfold line_to_string. cbn [fst snd].
  change (dec_of_N n ++ [c_space] ++ tokens_str toks) with (dec_of_N n ++ 32 :: tokens_str toks).
  rewrite (lex_split _ _ _ (relist_line_number n (tokens_str toks) Hn)).
  destruct (scan_total (S (length (tokens_str toks))) (tokens_str toks) ltac:(lia)) as [ts ->].
  exists (post_passes ts). reflexivity.
Qed.
Print Assumptions C05_listed_line_keeps_number.

Theorem C05_line_number_prefix : forall n body, n <= 65529 -> split_line_number (dec_of_N n ++ 32 :: body) = (Some n, body).
Proof. exact relist_line_number. Qed.
Print Assumptions C05_line_number_prefix.

Theorem C05_decimal_reads_back : forall n, parse_udec (dec_of_N n) = Some n.
Proof. exact parse_dec_of_N. Qed.
Print Assumptions C05_decimal_reads_back.

(* remark lines (Proofs/RemarkText.v) *)
From BL Require Import Mach.Func Proofs.RemarkText.

(* a line that is a remark written with ': entered and listed, it is the same text with the trailing blanks removed --
   whatever the text contains (quotes, colons, reserved words, lower case, any code points) *)
Theorem C05_apostrophe_remark_is_kept : forall n body, n <= 65529 ->
  relist (dec_of_N n ++ 32 :: 39 :: body) = Some (dec_of_N n ++ 32 :: 39 :: trim_end body).
Proof. intros n body Hn. exact (remark_line_is_kept n WRem2 (39 :: body) body Hn (or_intror eq_refl) eq_refl). Qed.
Print Assumptions C05_apostrophe_remark_is_kept.

(* ... and that listing, entered again, lists identically *)
Theorem C05_apostrophe_listing_is_a_fixed_point : forall n body, n <= 65529 ->
  forall t, relist (dec_of_N n ++ 32 :: 39 :: body) = Some t -> relist t = Some t.
Proof.
  intros n body Hn t E. rewrite (C05_apostrophe_remark_is_kept n body Hn) in E. injection E as <-.
  rewrite (C05_apostrophe_remark_is_kept n _ Hn). rewrite trim_end_idem. reflexivity.
Qed.
Print Assumptions C05_apostrophe_listing_is_a_fixed_point.

(* the same for REM followed by a character that cannot continue a word (a blank, a colon, a quote ...); text glued to REM
   is the recorded open finding of this property and is excluded by the premise *)
Theorem C05_rem_remark_is_kept : forall n c body, n <= 65529 -> ends_word c = true ->
  relist (dec_of_N n ++ 32 :: 82 :: 69 :: 77 :: c :: body) = Some (dec_of_N n ++ 32 :: 82 :: 69 :: 77 :: trim_end (c :: body)).
Proof.
  intros n c body Hn Hc. exact (remark_line_is_kept n WRem1 _ (c :: body) Hn (or_introl eq_refl) (scan_rem _ c body Hc)).
Qed.
Print Assumptions C05_rem_remark_is_kept.

Theorem C05_rem_listing_is_a_fixed_point : forall n c body, n <= 65529 -> ends_word c = true ->
  forall t, relist (dec_of_N n ++ 32 :: 82 :: 69 :: 77 :: c :: body) = Some t -> relist t = Some t.
Proof.
  intros n c body Hn Hc t E. rewrite (C05_rem_remark_is_kept n c body Hn Hc) in E. injection E as <-.
  destruct (trim_end_head c body) as [E0 | [b Eb]].
  - rewrite E0. exact (remark_line_is_kept n WRem1 [82; 69; 77] [] Hn (or_introl eq_refl) eq_refl).
  - pose proof (trim_end_idem (c :: body)) as Hi. rewrite Eb in *. rewrite (C05_rem_remark_is_kept n c b Hn Hc). rewrite Hi. reflexivity.
Qed.
Print Assumptions C05_rem_listing_is_a_fixed_point.

Example C05_remark_demo :
  relist (s2l "20 '" ++ remark_demo) = Some (s2l "20 'x: ""PRINT"" goto 10 " ++ [233; 26085])
  /\ relist (s2l "20 REM " ++ remark_demo) = Some (s2l "20 REM x: ""PRINT"" goto 10 " ++ [233; 26085])
  /\ ends_word 32 = true /\ ends_word 58 = true /\ ends_word 34 = true.
Proof. exact remark_demo_kept. Qed.

(* & constants (Proofs/RadixText.v) *)
From BL Require Import Proofs.RadixText.

(* a hexadecimal / octal constant lists as & H digits / & digits, and that text -- in front of anything that does not
   continue the digits -- scans back to the same constant (the character the scanner stopped at comes back in upper case) *)
Theorem C05_radix_listing_is_the_source_text : forall s, lit_str (LHex s) = 38 :: 72 :: s /\ lit_str (LOct s) = 38 :: s.
Proof. intros s. split; reflexivity. Qed.
Print Assumptions C05_radix_listing_is_the_source_text.

Theorem C05_hex_constant_reads_back : forall s rest, all_b hex_digit s = true -> stops true rest ->
  lex_radix (72 :: s ++ rest) = (TLit (LHex s), handed_back rest).
Proof.
  intros s rest Hs Hr. cbn [lex_radix]. change ((72 =? 72) || (72 =? 104)) with true. cbv iota.
  rewrite (radix_loop_reads true s rest [] Hs Hr). reflexivity.
Qed.
Print Assumptions C05_hex_constant_reads_back.

Theorem C05_oct_constant_reads_back : forall s rest, s <> [] -> all_b oct_digit s = true -> stops false rest ->
  lex_radix (s ++ rest) = (TLit (LOct s), handed_back rest).
Proof.
  intros s rest Hne Hs Hr. destruct s as [| c s']; [contradiction |]. cbn [app lex_radix].
  assert (Hc : oct_digit c = true) by (cbn [all_b] in Hs; apply andb_prop in Hs; tauto).
  assert (Hh : ((c =? 72) || (c =? 104)) = false).
  { unfold oct_digit in Hc. apply andb_prop in Hc. destruct Hc as [H1 H2]. apply N.leb_le in H1, H2.
    apply Bool.orb_false_iff. split; apply N.eqb_neq; lia. }
  rewrite Hh. change (c :: s' ++ rest) with ((c :: s') ++ rest). rewrite (radix_loop_reads false (c :: s') rest [] Hs Hr). reflexivity.
Qed.
Print Assumptions C05_oct_constant_reads_back.

Example C05_radix_demo :
  all_b hex_digit [49; 70] = true /\ stops true [32; 43] /\ all_b oct_digit [49; 55] = true /\ stops false [56] /\ stops false [58]
  /\ lex_radix (72 :: [49; 70] ++ [58]) = (TLit (LHex [49; 70]), [58]) /\ lex_radix ([49; 55] ++ [43]) = (TLit (LOct [49; 55]), [43]).
Proof. exact radix_demo. Qed.
