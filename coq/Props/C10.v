(* C10 -- user functions.
   Proved (with Proofs/FnCall.v, Proofs/FnBody.v): the error cases of the call (undefined function, wrong argument count, DEF
   at the prompt); entering the call (return address under the arguments, control at the function's code); the return
   protocol (the body's value is kept, everything down to the return address is dropped, control returns to the saved
   address; variables untouched); the function's code -- parameter stores, body, RETURN -- run on the VM: the body is
   evaluated at call time, with the parameters bound to the arguments and every other variable as it is then
   (C10_function_body_runs, for bodies built from literals, scalar variables, unary minus, NOT and the binary operators);
   DEF FN emits exactly that code (C10_def_statement_code, Proofs/StmtShape.v).
   Locality of parameters: a mangled parameter name contains a '.', the scanner never produces an identifier with one
   (Proofs/LexIdent.v), so binding a parameter leaves every variable a program can name as it was
   (C10_parameter_binding_is_local).
   NOT proved: bodies with built-in or user function calls or array elements; the steps chained through the fetch loop
   (C10_call_enters is about the call instruction, C10_function_body_runs about run_ops on the function's code); runaway
   recursion ending in OUT OF MEMORY (C18 cases).  The C10 monitor decides runs against Spec/Sem.v, which binds parameters
   in a local environment. *)
From BL Require Import Base.Prelude Mach.Val Mach.Compile Mach.Runtime Proofs.FnCall Lang.Token Lang.Parse.
Local Open Scope N_scope.

(* a mangled parameter name contains a '.', which no source identifier can contain: the scanner
   builds identifiers from letters, digits and one type suffix only *)
Theorem C10_mangled_has_dot : forall fn p, In 46 (ident_str (mangle fn p)).
Proof.
  intros fn p. unfold mangle.
  destruct p; cbn [ident_str]; apply in_or_app; right; left; reflexivity.
Qed.
Print Assumptions C10_mangled_has_dot.

Theorem C10_call_undefined : forall name r r1 args, pop_vec r = (r1, Ok args) ->
  alist_get name (r_fns r1) = None -> snd (do_fn name r) = err E_UndefinedFn.
Proof.
 intros name r r1 args Hp Hn. unfold do_fn, rbind. rewrite Hp. cbn [rget]. rewrite Hn. reflexivity.
Qed.
Print Assumptions C10_call_undefined.

Theorem C10_call_wrong_arity : forall name r r1 args arity addr, pop_vec r = (r1, Ok args) ->
  alist_get name (r_fns r1) = Some (arity, addr) -> arity <> lenN args -> snd (do_fn name r) = err E_IllegalFunctionCall.
Proof.
  intros name r r1 args arity addr Hp Hf Hne. unfold do_fn, rbind. rewrite Hp. cbn [rget]. rewrite Hf.
  destruct (N.eqb_spec arity (lenN args)); [contradiction | reflexivity].
Qed.
Print Assumptions C10_call_wrong_arity.

Theorem C10_def_in_direct_mode : forall name r, r_entry r <= r_pc r -> snd (do_def name r) = err E_IllegalDirect.
Proof.
 intros name r H. unfold do_def, rbind, rget. destruct (N.leb_spec (r_entry r) (r_pc r)); [reflexivity | lia].
Qed.
Print Assumptions C10_def_in_direct_mode.

Theorem C10_return_with_value : forall r v a rest, r_stack r = v :: VRet a :: rest -> is_assignable v = true ->
  lenN rest + 1 <= MAX_POOL ->
  exists r', do_return r = (r', Ok tt) /\ r_stack r' = v :: rest /\ r_pc r' = a /\ r_vars r' = r_vars r.
Proof.
  intros r v a rest Hs Hv Hb. unfold do_return. rewrite Hs.
  assert (E : return_loop (v :: VRet a :: rest) None true = Some (rest, Some v, a)).
  { cbn [return_loop]. destruct v; cbn in Hv; try discriminate; reflexivity. }
  rewrite E. unfold rbind, push, set_stack. cbn. destruct (N.ltb_spec MAX_POOL (lenN rest + 1)); [lia |].
  eexists. split; [reflexivity |]. cbn. repeat split; reflexivity.
Qed.
Print Assumptions C10_return_with_value.

(* the scanner never produces an identifier with a '.' (Proofs/LexIdent.v): parameters are private *)
From BL Require Import Lang.Lex Mach.Var Proofs.Vars Proofs.LexIdent.

(* whatever is typed, no identifier token of the scanned line contains a '.' *)
Theorem C10_scanned_identifiers_have_no_dot : forall src num toks i,
  lex src = Ok (num, toks) -> In (TIdent i) toks -> ~ In 46 (ident_str i).
Proof. exact scanned_identifiers_have_no_dot. Qed.
Print Assumptions C10_scanned_identifiers_have_no_dot.

(* so the mangled name FNX.P under which a parameter is stored is never the name of an identifier of any source line *)
Theorem C10_mangled_names_are_private : forall src num toks i fn p,
  lex src = Ok (num, toks) -> In (TIdent i) toks -> ident_str (mangle fn p) <> ident_str i.
Proof. exact mangled_names_are_private. Qed.
Print Assumptions C10_mangled_names_are_private.

(* and binding a parameter -- a store to its mangled name -- leaves every variable a program can name as it was *)
Theorem C10_parameter_binding_is_local : forall src num toks i fn p vs v vs',
  lex src = Ok (num, toks) -> In (TIdent i) toks ->
  var_store vs (ident_str (mangle fn p)) v = Ok vs' -> var_fetch vs' (ident_str i) = var_fetch vs (ident_str i).
Proof.
  intros src num toks i fn p vs v vs' H Hin Hst. apply (store_frame vs _ v vs' _ Hst).
  intros E. exact (mangled_names_are_private src num toks i fn p H Hin (eq_sym E)).
Qed.
Print Assumptions C10_parameter_binding_is_local.

(* the call itself (Proofs/FnCall.v, Proofs/FnBody.v) *)
From BL Require Import Lang.Ast Proofs.ExprCompile Proofs.FnBody.

(* entering: the return address goes under the arguments, the first argument is on top, control is at the function's code *)
Theorem C10_call_enters : forall name r r1 args arity addr, pop_vec r = (r1, Ok args) ->
  alist_get name (r_fns r1) = Some (arity, addr) -> arity = lenN args -> r_slen r1 + 1 + lenN args <= MAX_POOL ->
  exists r2, do_fn name r = (r2, Ok tt)
    /\ r_stack r2 = args ++ VRet (r_pc r1) :: r_stack r1 /\ r_pc r2 = addr
    /\ r_vars r2 = r_vars r1 /\ r_fns r2 = r_fns r1 /\ r_prog r2 = r_prog r1 /\ r_state r2 = r_state r1.
Proof.
  intros name r r1 args arity addr Hp Hf Ha Hb. unfold do_fn. unfold rbind at 1. rewrite Hp. unfold rbind at 1. unfold rget at 1.
  rewrite Hf. rewrite Ha, N.eqb_refl. unfold rbind at 1. rewrite push_ok by lia. unfold pushed, rbind at 1.
  rewrite (pushes_ok (fun a => a)) by (cbn [r_slen set_stack_len]; unfold lenN; rewrite rev_length; unfold lenN in Hb; lia).
  unfold rmod. eexists. split; [reflexivity |]. cbn [r_stack r_pc r_vars r_fns r_prog r_state set_pc set_stack_len]. rewrite map_id, rev_involutive.
  repeat split; reflexivity.
Qed.
Print Assumptions C10_call_enters.

(* the body: parameter stores, the expression's code and RETURN leave the body's value -- evaluated with the parameters bound to
   the arguments and every other variable as it is at call time -- on the caller's stack and return behind the call; whatever
   the caller had on the stack below (loop frames, return addresses, temporaries of the calling expression) is untouched *)
Theorem C10_function_body_runs : forall O h names body r args a rest vs' v,
  pure body = true ->
  r_stack r = args ++ VRet a :: rest -> r_slen r = lenN (args ++ VRet a :: rest) ->
  bind_params (r_vars r) names args = Ok vs' ->
  eval_pure O vs' body = Ok v -> is_assignable v = true ->
  lenN rest + 1 + lenN (postfix body) <= MAX_POOL ->
  exists r', run_ops O h (map OpPop names ++ postfix body ++ [OpReturn]) r = (r', Ok tt)
    /\ r_stack r' = v :: rest /\ r_pc r' = a /\ r_vars r' = vs'.
Proof.
  intros O h names body r args a rest vs' v Hp Hs Hl Hb Hv Hav Hroom.
  rewrite run_ops_app. rewrite (pops_bind O h names args r (VRet a :: rest) vs' Hs Hl Hb).
  set (r1 := set_vars (set_stack_len r (VRet a :: rest) (lenN (VRet a :: rest))) vs').
  rewrite run_ops_app.
  assert (Hl1 : lenN (VRet a :: rest) = lenN rest + 1) by (unfold lenN; cbn [List.length]; lia).
  pose proof (run_postfix O h body r1 Hp) as Hrun. cbn [r_slen r1 set_vars set_stack_len] in Hrun.
  specialize (Hrun ltac:(unfold r1; cbn [r_slen set_vars set_stack_len]; lia)).
  assert (Hvars : r_vars r1 = vs') by reflexivity. rewrite Hvars, Hv in Hrun. rewrite Hrun.
  cbn [run_ops exec_op]. unfold rbind at 1. unfold rbind at 1.
  destruct (C10_return_with_value (pushed r1 v) v a rest) as [r' (E & Hst & Hpc & Hvs)]; [reflexivity | exact Hav | lia |].
  rewrite E. unfold rret. exists r'. split; [reflexivity |]. split; [exact Hst |]. split; [exact Hpc |]. rewrite Hvs. reflexivity.
Qed.
Print Assumptions C10_function_body_runs.

(* the code DEF FN emits is the sequence the call runs (Proofs/StmtShape.v) *)
From BL Require Import Proofs.StmtShape.
Theorem C10_def_statement_code : forall c fc fn (ps : list (col * ident)) body,
  pure body = true -> lenN (postfix body) <= MAX_POOL -> lenN ps <= 32767 ->
  let names := map (fun ci => ident_str (snd ci)) ps in
  let code := [OpLiteral (VInt (Z.of_N (lenN ps))); OpDef (ident_str fn); OpJump 0] ++ map OpPop names ++ postfix body ++ [OpReturn] in
  lenN code <= MAX_POOL ->
  let s := SDef c (VUnary fc fn) (map (fun ci => VUnary (fst ci) (snd ci)) ps) body in
  l_ops (snd (fst (cg_stmt s))) = code /\ snd (cg_stmt s) = [].
Proof.
  intros c fc fn ps body Hp Hl Hps. cbn zeta. intros Hc.
  destruct (cg_expr_postfix body Hp Hl) as [E1 E2].
  cbn [cg_stmt cg_var].
  destruct (scalar_vars ps) as [Hv He1]. rewrite Hv, He1, map_map. cbn [scalar_item vi_name]. destruct (cg_expr body) as [bf e3] eqn:Eb. cbn [fst snd] in E1, E2. subst e3.
  cbn [vi_name fst snd app].
  destruct bf as [bc bl]. cbn [snd] in E1. subst bl.
  assert (Hn : lenN (map (fun x : col * ident => ident_str (snd x)) ps) = lenN ps) by (unfold lenN; rewrite map_length; reflexivity).
  destruct (def_fn_code c (ident_str fn) (map (fun x : col * ident => ident_str (snd x)) ps) (postfix body)) as [l (El & Hops & _)].
  - rewrite Hn. exact Hps.
  - rewrite Hn. exact Hc.
  - unfold run_frag, lbind. cbn [snd]. rewrite El. unfold lret. cbn [fst snd app]. rewrite Hops, Hn. split; reflexivity.
Qed.
Print Assumptions C10_def_statement_code.
