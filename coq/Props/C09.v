(* C09 -- READ consumes DATA in source order; RESTORE and RUN reposition it.
   Proved (with Proofs/DataRead.v): one READ takes the constant under the pointer and advances it by one, touching nothing
   else; k READs deliver the next k constants of the segment in order; reading past the end is OUT OF DATA and changes
   nothing; RESTORE sets the pointer to the resolved data address; CLEAR rewinds to 0; a line's symbol records the number
   of constants before the line; appending a fragment appends its constants.
   Proved (Proofs/DataSeg.v, Proofs/SymSeg.v), by induction over ALL statement kinds of the code generator and over all
   programs: a statement that compiles without error contributes exactly its DATA constants, in the reference
   semantics' order (IF: THEN part, then ELSE part); the data segment of the compiled and linked program is Sem.all_data
   -- the DATA constants in source order, wherever the DATA lines sit (C09_data_segment_is_source_order); statement code
   only defines negative local symbols above the fragment's counter, so appending never disturbs a line symbol, and the
   symbol of line n holds the address RESTORE n receives: Sem.data_index_of_line n, the number of constants in the
   lines before n (C09_restore_address).  A fragment with DATA in a direct line is refused before anything of it is merged
   (C09_direct_data_is_refused_whole).
   NOT proved: conversion of the value read to the variable's type "exactly as assignment would" is the shared OpPop
   path (C06's theorems), not restated here; edit histories before the run are C04's business. *)
From BL Require Import Base.Prelude Mach.Val Mach.Compile Mach.Runtime Proofs.ExprCompile Proofs.DataRead
  Lang.Ast Spec.Sem Proofs.Flow Proofs.DataSeg Proofs.SymSeg.
Local Open Scope N_scope.

(* appending a fragment keeps the data already in the segment and adds the fragment's constants behind it *)
Theorem C09_append_data : forall l f l', l_append f l = (l', Ok tt) -> l_data l' = l_data l ++ l_data f.
Proof. intros l f l'. exact (DataSeg.append_data f l l'). Qed.
Print Assumptions C09_append_data.

Theorem C09_read_one : forall r v, nthN (data_of r) (data_pos r) = Some v -> r_slen r + 1 <= MAX_POOL ->
  exists r', do_read r = (r', Ok tt)
    /\ r_stack r' = v :: r_stack r /\ data_pos r' = data_pos r + 1 /\ data_of r' = data_of r
    /\ r_vars r' = r_vars r /\ r_pc r' = r_pc r /\ l_ops (pg_link (r_prog r')) = l_ops (pg_link (r_prog r)).
Proof.
  intros r v Hn Hs. eexists. split; [exact (do_read_eq r v Hn Hs) |]. cbn. repeat split; reflexivity.
Qed.
Print Assumptions C09_read_one.

Theorem C09_read_past_end : forall r, lenN (data_of r) <= data_pos r -> do_read r = (r, err E_OutOfData).
Proof.
  intros r H. unfold do_read, rbind, rget. unfold data_of, data_pos in *.
  assert (Hn : nthN (l_data (pg_link (r_prog r))) (l_data_pos (pg_link (r_prog r))) = None).
  { unfold nthN. apply nth_error_None. unfold lenN in H. lia. }
  rewrite Hn. reflexivity.
Qed.
Print Assumptions C09_read_past_end.

Theorem C09_read_sequence : forall k r vs, firstn k (skipnN (data_pos r) (data_of r)) = vs -> length vs = k ->
  r_slen r + N.of_nat k <= MAX_POOL ->
  exists r', reads k r = (r', Ok tt) /\ r_stack r' = rev vs ++ r_stack r /\ data_pos r' = data_pos r + N.of_nat k
             /\ data_of r' = data_of r /\ r_vars r' = r_vars r.
Proof.
  induction k as [| k IH]; intros r vs Hf Hl Hs.
  - destruct vs; [| discriminate]. exists r. cbn. repeat split; try reflexivity. lia.
  - destruct vs as [| v vs]; [discriminate |].
    destruct (skipnN (data_pos r) (data_of r)) as [| x rest] eqn:Es; [discriminate |].
    cbn [firstn] in Hf. injection Hf as -> Hf. destruct (skipnN_cons _ _ _ _ _ Es) as [Hn Hrest].
    pose proof (do_read_eq r v Hn ltac:(lia)) as E1. set (r1 := pushed (set_data_pos r (data_pos r + 1)) v) in E1.
    destruct (IH r1 vs ltac:(change (data_pos r1) with (data_pos r + 1); change (data_of r1) with (data_of r); rewrite Hrest; exact Hf)
                ltac:(cbn in Hl; lia) ltac:(cbn [r1 pushed r_slen set_stack_len]; cbn; lia)) as (r2 & E2 & S2 & P2 & D2 & V2).
    exists r2. cbn [reads]. unfold rbind. rewrite E1. split; [exact E2 |].
    rewrite S2, P2, D2, V2. change (data_pos r1) with (data_pos r + 1). cbn [r1 pushed r_stack set_stack_len rev]. rewrite <- app_assoc.
    repeat split; try reflexivity. lia.
Qed.
Print Assumptions C09_read_sequence.

Theorem C09_restore_sets_pointer : forall O h a r, data_pos (fst (exec_op O h (OpRestore a) r)) = a
  /\ data_of (fst (exec_op O h (OpRestore a) r)) = data_of r.
Proof.
 intros. cbn. split; reflexivity.
Qed.
Print Assumptions C09_restore_sets_pointer.

Theorem C09_clear_rewinds : forall O r, data_pos (fst (do_clear O r)) = 0 /\ data_of (fst (do_clear O r)) = data_of r.
Proof.
 intros. cbn. split; reflexivity.
Qed.
Print Assumptions C09_clear_rewinds.

Theorem C09_line_symbol_data_address : forall n l l', l_push_symbol n l = (l', Ok tt) ->
  exists a, zassoc_get n (l_syms l') = Some (a, lenN (l_data l)).
Proof.
  intros n l l' H. unfold l_push_symbol in H. injection H as <-. exists (lenN (l_ops l)). apply Reloc.zassoc_get_set_same.
Qed.
Print Assumptions C09_line_symbol_data_address.

(* the data segment of whole programs (Proofs/DataSeg.v, Proofs/SymSeg.v) *)

(* expressions and variables never put anything into the data segment, whatever happens while compiling them *)
Theorem C09_expressions_have_no_data : forall e, l_data (snd (fst (cg_expr e))) = [].
Proof. exact cg_expr_nodata. Qed.
Print Assumptions C09_expressions_have_no_data.

(* every statement kind: compiled without error, it contributes exactly its DATA constants in the reference order *)
Theorem C09_statement_data : forall s, snd (cg_stmt s) = [] -> wf_data s = true ->
  map Some (l_data (snd (fst (cg_stmt s)))) = stmt_data s.
Proof. exact cg_stmt_data. Qed.
Print Assumptions C09_statement_data.

(* linking does not touch the data segment *)
Theorem C09_link_keeps_data : forall p, l_data (pg_link (program_link p)) = l_data (pg_link p).
Proof. exact program_link_data. Qed.
Print Assumptions C09_link_keeps_data.

(* any program, any layout: the segment READ indexes into is the DATA constants in source order *)
Theorem C09_data_segment_is_source_order : forall prog dp,
  pg_errors (compile_asts prog dp) = [] -> forallb (fun e => forallb wf_data (snd e)) prog = true ->
  map Some (l_data (pg_link (program_link (compile_asts prog dp)))) = all_data prog.
Proof.
  intros prog dp Herr Hwf. rewrite program_link_data, compile_asts_from in *.
  destruct (compile_from_data prog _ Herr) as (_ & Hss & Hd). rewrite Hd. cbn [pg_link plink l_data app].
  unfold all_data. apply Reloc.map_flat_map. rewrite forallb_forall in Hwf. rewrite Forall_forall in *.
  intros e Hin. exact (line_vals_data (snd e) (Hss e Hin) (Hwf e Hin)).
Qed.
Print Assumptions C09_data_segment_is_source_order.

(* statement code keeps its symbols to itself: negative, above the fragment's counter *)
Theorem C09_statement_symbols_local : forall s, snd (cg_stmt s) = [] ->
  (l_cur (snd (fst (cg_stmt s))) <= 0)%Z
  /\ forall k v, In (k, v) (l_syms (snd (fst (cg_stmt s)))) -> (l_cur (snd (fst (cg_stmt s))) <= k < 0)%Z.
Proof. intros s _. exact (cg_stmt_inv s). Qed.
Print Assumptions C09_statement_symbols_local.

(* RESTORE n: the data address recorded for line n is the number of constants in the lines before it *)
Theorem C09_restore_address : forall before n ss after dp,
  let prog := before ++ (n, ss) :: after in
  pg_errors (compile_asts prog dp) = [] -> forallb (fun e => forallb wf_data (snd e)) prog = true ->
  (forall e, In e before -> fst e < n) -> (forall e, In e after -> n < fst e) ->
  exists code_addr,
    zassoc_get (Z.of_N n) (l_syms (pg_link (compile_asts prog dp))) = Some (code_addr, data_index_of_line prog n).
Proof.
  intros before n ss after dp prog Herr Hwf Hb Ha. rewrite compile_asts_from in *. unfold prog in *.
  eexists. rewrite (line_symbol_addresses before n ss after _ Herr (pinv_start dp)).
  2:{ intros Hin. apply in_map_iff in Hin. destruct Hin as [e [E He]]. specialize (Ha e He). lia. }
  f_equal. f_equal. cbn [pg_link plink l_data app].
  destruct (compile_from_data _ _ Herr) as (_ & Hss & _).
  unfold data_index_of_line. rewrite flat_map_app. cbn [flat_map fst snd]. rewrite !ExprCompile.lenN_app.
  destruct (N.ltb_spec n n); [lia |]. cbn [app].
  assert (Hafter : flat_map (fun e : N * list stmt => if fst e <? n then line_data (snd e) else []) after = []).
  { clear - Ha. induction after as [| e r IH]; [reflexivity |]. cbn [flat_map]. destruct (N.ltb_spec (fst e) n) as [Hlt | _].
    - specialize (Ha e (or_introl eq_refl)). lia.
    - apply IH. intros e' He'. apply Ha. right. exact He'. }
  rewrite Hafter. change (lenN (@nil (option val))) with 0. rewrite N.add_0_r.
  rewrite forallb_app in Hwf. apply andb_prop in Hwf. destruct Hwf as [Hwb _].
  apply Forall_app in Hss. destruct Hss as [Hsb _].
  exact (before_count before n Hb Hwb Hsb).
Qed.
Print Assumptions C09_restore_address.

(* the premises are met by a parsed program with DATA before, inside (IF branches) and after the code that reads it *)
Theorem C09_demo_program :
  lenN data_demo = 5 /\ pg_errors (compile_asts data_demo 0) = []
  /\ forallb (fun e => forallb wf_data (snd e)) data_demo = true
  /\ l_data (pg_link (program_link (compile_asts data_demo 0))) = [VInt 1; VSng 3223322624; VStr [88]; VInt 7; VInt 9; VInt (-3)]
  /\ zassoc_get 30%Z (l_syms (pg_link (compile_asts data_demo 0))) = Some (4, 2) /\ data_index_of_line data_demo 30 = 2.
Proof. exact data_demo_facts. Qed.
Print Assumptions C09_demo_program.

(* DATA in a direct line: the fragment is refused before anything of it is merged -- the link, and with it the program's data
   segment, is exactly what it was (a guard placed behind the merge, as in three seeded changes, fails this) *)
Theorem C09_direct_data_is_refused_whole : forall f l, l_direct_set l = true -> l_data f <> [] ->
  l_append f l = (l, err E_IllegalDirect).
Proof.
  intros f l Hd Hf. unfold l_append. rewrite Hd. destruct (l_data f); [contradiction | reflexivity].
Qed.
Print Assumptions C09_direct_data_is_refused_whole.
