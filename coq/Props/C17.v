(* C17 -- INPUT parses replies as documented and retries per reply.
   Proved (with Proofs/Input.v): the reply is cut at the commas outside double quotes -- nothing lost, nothing invented, exact on
   well-quoted fields.  Proved (helper lemmas in Proofs/Input.v, Slicing.v, RMFrame.v), for every machine state: the prompt event is the program's prompt
   followed by "? " with capitals off exactly for the Integer-0 flag; a reply with the wrong number of fields or over the
   length limit is refused as a whole, changing nothing but the state; the refusal is reported as REDO FROM START and the
   machine prompts again; an accepted reply puts a return address under its fields, first field on top, without touching a
   variable; one field becomes a string (trimmed, one pair of quotes removed) or a number (0 when empty); an error while
   the fields are stored cuts the stack back below that return address, goes back to the INPUT statement and refuses the
   reply.  Proved (with Proofs/Strings2.v): a field &H... / &... reads back, as the same Integer, what HEX$ / OCT$ print for
   0..32767 (C17_field_reads_hex, C17_field_reads_oct).
   NOT proved: the rest of the number syntax of a field (val_from_str: decimal, exponent; & and &H forms other than those)
   against the manual; that the compiled INPUT statement drives these steps in the documented order (differential). *)
From BL Require Import Base.Prelude Mach.Val Mach.Func Mach.Compile Mach.Listing Mach.Runtime Proofs.Slicing Proofs.ExprCompile Proofs.FnCall Proofs.Input.
From BL Require Proofs.RMFrame.
Local Open Scope N_scope.

Theorem C17_split_single : forall s, ~ In 44 s -> ~ In 34 s -> split_fields s [] false = [s].
Proof.
  intros s Hc Hq.
  assert (G : forall cur, split_fields s cur false = [rev cur ++ s]).
  { induction s as [| c r IH]; intros cur; cbn.
    - rewrite app_nil_r. reflexivity.
    - destruct (N.eqb_spec c 34) as [-> | H1]; [exfalso; apply Hq; left; reflexivity |].
      destruct (N.eqb_spec c 44) as [-> | H2]; [exfalso; apply Hc; left; reflexivity |].
      cbn. rewrite IH.
      + cbn. rewrite <- app_assoc. reflexivity.
      + intros Hin; apply Hc; right; exact Hin.
      + intros Hin; apply Hq; right; exact Hin. }
  exact (G []).
Qed.
Print Assumptions C17_split_single.

(* nothing is lost or invented: the fields joined by commas are the reply, for every reply *)
Theorem C17_split_join : forall s, join_commas (split_fields s [] false) = s.
Proof.
 intros s. apply (split_join_gen s [] false).
Qed.
Print Assumptions C17_split_join.

(* n fields with closed quotes and no comma outside quotes, joined by commas, split into exactly those n fields *)
Theorem C17_split_exact : forall fs, fs <> [] -> Forall (fun f => scan f false = Some false) fs ->
  split_fields (join_commas fs) [] false = fs.
Proof.
  induction fs as [| f rest IH]; intros Hne Hall; [contradiction |].
  inversion Hall as [| ? ? Hf Hrest]; subst.
  destruct rest as [| g rest'].
  - cbn [join_commas]. rewrite <- (app_nil_r f) at 1. rewrite (split_through_field f [] [] false false Hf).
    cbn. rewrite app_nil_r, rev_involutive. reflexivity.
  - cbn [join_commas]. rewrite (split_through_field f _ [] false false Hf). cbn [split_fields].
    cbn. rewrite app_nil_r, rev_involutive. f_equal. apply IH; [discriminate | exact Hrest].
Qed.
Print Assumptions C17_split_exact.

Theorem C17_split_nonempty : forall s cur q, split_fields s cur q <> [].
Proof. exact split_nonempty. Qed.
Print Assumptions C17_split_nonempty.

Theorem C17_prompt_event : forall O r len caps p rest k, r_state r = StInput -> r_stack r = len :: caps :: VStr p :: rest ->
  r_slen r <= MAX_POOL ->
  exists r', rt_execute O r k = Ok (r', EvInput (p ++ [63; 32]) (negb (match caps with VInt n => (n =? 0)%Z | _ => false end)))
             /\ r_stack r' = len :: caps :: VStr p :: rest /\ r_col r' = 0 /\ r_vars r' = r_vars r /\ r_pc r' = r_pc r.
Proof.
  intros O r len caps p rest k Hst Hs Hl. rewrite execute_eq. unfold before_loop. rewrite Hst. unfold execute_input, rbind, pop, rget. rewrite Hs.
  cbn [set_stack_len r_stack r_slen]. unfold push. cbn [set_stack_len r_stack r_slen].
  assert (E1 : MAX_POOL <? r_slen r - 1 - 1 + 1 = false) by (apply N.ltb_ge; unfold MAX_POOL in *; lia). rewrite E1.
  assert (E2 : MAX_POOL <? r_slen r - 1 - 1 + 1 + 1 = false) by (apply N.ltb_ge; unfold MAX_POOL in *; lia). rewrite E2.
  cbn. eexists. split; [reflexivity |]. cbn. repeat split; reflexivity.
Qed.
Print Assumptions C17_prompt_event.

Theorem C17_wrong_field_count : forall O r s n rest, r_stack r = VInt n :: rest -> (1 < n)%Z -> utf8_len s <= MAX_LINE_LEN ->
  Z.of_N (lenN (split_fields s [] false)) <> n -> enter_input O r s = set_state r StInputRedo.
Proof.
  intros O r s n rest Hs Hn Hlen Hc. unfold enter_input. destruct (N.ltb_spec MAX_LINE_LEN (utf8_len s)); [lia |]. rewrite Hs.
  destruct (Z.leb_spec n 1); [lia |]. cbn [negb andb]. destruct (Z.eqb_spec (Z.of_N (lenN (split_fields s [] false))) n); [contradiction | reflexivity].
Qed.
Print Assumptions C17_wrong_field_count.

Theorem C17_long_reply_refused : forall O r s, MAX_LINE_LEN < utf8_len s -> enter_input O r s = set_state r StInputRedo.
Proof.
  intros O r s H. unfold enter_input. destruct (N.ltb_spec MAX_LINE_LEN (utf8_len s)); [reflexivity | lia].
Qed.
Print Assumptions C17_long_reply_refused.

Theorem C17_redo_reported : forall O r k, r_state r = StInputRedo ->
  rt_execute O r k = Ok (set_state r StInput, EvErrors [mkErr E_Redo None (0, 0)]).
Proof.
  intros O r k H. rewrite execute_eq. unfold before_loop. rewrite H. reflexivity.
Qed.
Print Assumptions C17_redo_reported.

Theorem C17_reply_accepted : forall O r s n rest, r_stack r = VInt n :: rest -> utf8_len s <= MAX_LINE_LEN ->
  let fields := if (n <=? 1)%Z then [s] else split_fields s [] false in
  ((n <=? 1)%Z = true \/ Z.of_N (lenN fields) = n) -> r_slen r + 1 + lenN fields <= MAX_POOL ->
  let r' := enter_input O r s in
  r_stack r' = map VStr fields ++ VRet (r_pc r) :: VInt n :: rest /\ r_state r' = StInputRunning
  /\ r_vars r' = r_vars r /\ r_pc r' = r_pc r /\ r_prog r' = r_prog r.
Proof.
  intros O r s n rest Hs Hlen fields Hc Hsp. unfold enter_input. destruct (N.ltb_spec MAX_LINE_LEN (utf8_len s)); [lia |]. rewrite Hs.
  fold fields.
  assert (Hgo : negb (n <=? 1)%Z && negb (Z.of_N (lenN fields) =? n)%Z = false).
  { destruct Hc as [H1 | H2]; [rewrite H1; reflexivity |]. rewrite H2, Z.eqb_refl. apply Bool.andb_false_r. }
  rewrite Hgo.
  assert (Ep : push (VRet (r_pc r)) r = (set_stack_len r (VRet (r_pc r) :: r_stack r) (r_slen r + 1), Ok tt)).
  { apply push_ok. lia. }
  rewrite (RMFrame.rbind_ok _ _ _ _ _ Ep).
  assert (Ef : fold_left (fun m f => rdo _ <~ m ;; push (VStr f)) (rev fields) (rret tt)
                 (set_stack_len r (VRet (r_pc r) :: r_stack r) (r_slen r + 1))
               = (set_stack_len (set_stack_len r (VRet (r_pc r) :: r_stack r) (r_slen r + 1))
                    (rev (map VStr (rev fields)) ++ VRet (r_pc r) :: r_stack r) (r_slen r + 1 + lenN (rev fields)), Ok tt)).
  { apply (pushes_ok VStr). cbn [set_stack_len r_slen]. unfold lenN in *. rewrite rev_length. lia. }
  rewrite (RMFrame.rbind_ok _ _ _ _ _ Ef). unfold rmod. cbn [set_stack_len r_stack r_slen set_state r_state r_vars r_pc r_prog].
  rewrite map_rev, rev_involutive, Hs. repeat split; reflexivity.
Qed.
Print Assumptions C17_reply_accepted.

Theorem C17_field_conversion : forall r name field rest c0 nm, r_state r = StInputRunning -> name = c0 :: nm ->
  r_stack r = VStr field :: rest -> r_slen r <= MAX_POOL ->
  do_input name r =
  (set_stack_len r ((if ends_with_chr name 36 then VStr (strip_quotes (trim field))
                     else match trim field with [] => VInt 0 | f => val_from_str f end) :: rest) (r_slen r - 1 + 1), Ok None).
Proof.
  intros r name field rest c0 nm Hst -> Hs Hl. unfold do_input, rbind, rget. rewrite Hst. unfold pop. rewrite Hs.
  cbn [set_stack_len r_stack r_slen].
  assert (E1 : MAX_POOL <? r_slen r - 1 + 1 = false) by (apply N.ltb_ge; unfold MAX_POOL in *; lia).
  destruct (ends_with_chr (c0 :: nm) 36); [unfold push; cbn [set_stack_len r_stack r_slen]; rewrite E1; reflexivity |].
  destruct (trim field); unfold push; cbn [set_stack_len r_stack r_slen]; rewrite E1; reflexivity.
Qed.
Print Assumptions C17_field_conversion.

Theorem C17_store_error_retries : forall O r k r2 e above a below,
  r_state r = StInputRunning -> ls_dir_errors (r_listing r) = [] ->
  exec_loop O (N.to_nat k) (match ls_ind_errors (r_listing r) with [] => false | _ => true end) r = (r2, Err e) ->
  r_state r2 = StInputRunning -> r_stack r2 = above ++ VRet a :: below ->
  (forall v, In v above -> match v with VRet _ => False | _ => True end) ->
  rt_execute O r k = Ok (set_state (set_pc (set_stack r2 below) a) StInputRedo, EvRunning).
Proof.
  intros O r k r2 e above a below Hst Hd Hex Hst2 Hs Hab. rewrite (exec_running O r k) by (rewrite ?Hst; trivial).
  rewrite Hex. cbn [after_loop]. rewrite Hst2, Hs, (unwind_spec above a below Hab). reflexivity.
Qed.
Print Assumptions C17_store_error_retries.

(* number syntax of a field: the & forms read back what HEX$ / OCT$ print (Proofs/Strings2.v) *)
From BL Require Import Proofs.Strings2.

Theorem C17_field_reads_hex : forall n, (0 <= n <= 32767)%Z ->
  exists s, fn_hex (VInt n) = Ok (VStr s) /\ val_from_str (38 :: 72 :: s) = VInt n.
Proof.
  intros n Hn. eexists. split; [reflexivity |].
  destruct (i16_reads_back 16 n ltac:(lia) Hn) as (c & r & -> & _ & Hi).
  unfold val_from_str. cbv beta iota zeta delta [N.eqb Pos.eqb orb]. rewrite Hi. reflexivity.
Qed.
Print Assumptions C17_field_reads_hex.

Theorem C17_field_reads_oct : forall n, (0 <= n <= 32767)%Z ->
  exists s, fn_oct (VInt n) = Ok (VStr s) /\ val_from_str (38 :: s) = VInt n.
Proof.
  intros n Hn. eexists. split; [reflexivity |].
  destruct (i16_reads_back 8 n ltac:(lia) Hn) as (c & r & -> & (d & Hd & Hc) & Hi).
  assert (Hr : 48 <= c <= 55) by (destruct (N.ltb_spec d 10); lia).
  unfold val_from_str. cbv beta iota zeta. change (38 =? 38) with true. cbv iota.
  destruct (N.eqb_spec c 72); [lia |]. destruct (N.eqb_spec c 104); [lia |]. cbv beta iota delta [orb]. rewrite Hi. reflexivity.
Qed.
Print Assumptions C17_field_reads_oct.

Example C17_field_hex_example : val_from_str (38 :: 72 :: 55 :: 70 :: nil) = VInt 127 /\ val_from_str (38 :: 49 :: 55 :: nil) = VInt 15.
Proof. split; vm_compute; reflexivity. Qed.
