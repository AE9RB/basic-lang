(* C02 -- expressions: precedence, promotion, result types, typed assignment.
   Proved: the precedence tables are the manual's 13 levels; result types of every operator (the wider operand type for
   + - *, Single at least for /, Integer for \ MOD and the logical operators, 0 / -1 for the relational ones); the only
   error of + - * is OVERFLOW between two Integers; conversion on assignment fails only with OVERFLOW, TYPE MISMATCH or
   STRING TOO LONG and otherwise yields a value of the target type (C06_store_typed: nothing else is ever stored);
   compiled expression code computes what the reference semantics prescribes (C01_compiled_expression_correct).
   Proved (Proofs/ParseExpr.v): the expression parser builds the tree the table prescribes -- for every expression tree over
   identifiers, literals, array elements / function calls (any number of arguments), unary minus, NOT and the binary operators, at every depth, the parser run on the tokens of the
   tree's minimally parenthesised rendering returns that tree (columns aside) and stops in front of what follows
   (C02_parser_builds_the_tree); more fuel never changes a result (C02_fuel_monotone).
   Proved (Proofs/SourceTables.v): the model's precedence tables are the source's (C02_precedences_are_the_sources).
   NOT proved: unary plus (it builds no node), DEF FN parameter renaming, numeric literal typing, the numeric
   functions; that the model's fuel formula suffices (the Rust parser has no fuel; differential). *)
From BL Require Import Base.Prelude Base.Floats Mach.Val Mach.Ops Mach.Var Lang.Token Lang.Parse Proofs.Vars Proofs.Promote.
Local Open Scope N_scope.

(* the parser's two tables are the manual's 13 levels *)
Theorem C02_prec_table :
  binary_prec OCaret = 13 /\ unary_prec OMinus = 12 /\ unary_prec OPlus = 12 /\ binary_prec OMul = 11 /\ binary_prec ODiv = 11
  /\ binary_prec ODivInt = 10 /\ binary_prec OMod = 9 /\ binary_prec OPlus = 8 /\ binary_prec OMinus = 8
  /\ (forall o, In o [OEq; ONe; OLt; OLe; OGt; OGe] -> binary_prec o = 7)
  /\ unary_prec ONot = 6 /\ binary_prec OAnd = 5 /\ binary_prec OOr = 4 /\ binary_prec OXor = 3
  /\ binary_prec OImp = 2 /\ binary_prec OEqv = 1.
Proof.
  repeat split; try reflexivity.
  intros o H. cbn in H. repeat (destruct H as [<- | H]; [reflexivity |]). contradiction.
Qed.
Print Assumptions C02_prec_table.

(* relational operators yield exactly 0 or -1 *)
Theorem C02_relational_bool : forall l r v,
  (op_equal l r = Ok v \/ op_not_equal l r = Ok v \/ op_less l r = Ok v \/ op_less_equal l r = Ok v
   \/ op_greater l r = Ok v \/ op_greater_equal l r = Ok v) -> v = VInt 0 \/ v = VInt (-1).
Proof.
  intros l r v H.
  assert (Hb : forall b, bool_val b = VInt 0 \/ bool_val b = VInt (-1)) by (intros []; [right | left]; reflexivity).
  unfold op_equal, op_not_equal, op_less, op_less_equal, op_greater, op_greater_equal, bind in H.
  destruct H as [H | [H | [H | [H | [H | H]]]]];
    match type of H with (match ?e with _ => _ end) = _ => destruct e as [b | | |] end;
    try discriminate; injection H as <-; apply Hb.
Qed.
Print Assumptions C02_relational_bool.

Theorem C02_sum_type : forall l r v tl tr, op_sum l r = Ok v -> val_type l = Some tl -> val_type r = Some tr ->
  numeric l = true -> numeric r = true -> val_type v = Some (wider tl tr).
Proof.
  intros l r v tl tr H Hl Hr Nl Nr. unfold op_sum in H.
  destruct l; cbn in Nl; try discriminate; exact (arith_type _ _ _ _ _ _ _ _ H Hl Hr eq_refl Nr).
Qed.
Print Assumptions C02_sum_type.

Theorem C02_subtract_type : forall l r v tl tr, op_subtract l r = Ok v -> val_type l = Some tl -> val_type r = Some tr ->
  numeric l = true -> numeric r = true -> val_type v = Some (wider tl tr).
Proof. intros l r v tl tr H. exact (arith_type _ _ _ _ _ _ _ _ H). Qed.
Print Assumptions C02_subtract_type.

Theorem C02_multiply_type : forall l r v tl tr, op_multiply l r = Ok v -> val_type l = Some tl -> val_type r = Some tr ->
  numeric l = true -> numeric r = true -> val_type v = Some (wider tl tr).
Proof. intros l r v tl tr H. exact (arith_type _ _ _ _ _ _ _ _ H). Qed.
Print Assumptions C02_multiply_type.

Theorem C02_arith_error : forall fi f32 f64 l r e, numeric l = true -> numeric r = true ->
  arith fi f32 f64 l r = Err e -> ecode e = E_Overflow /\ val_type l = Some TInt /\ val_type r = Some TInt.
Proof.
  unfold arith. destruct l, r; cbn; intros e Nl Nr H; try discriminate.
  unfold chk in H. destruct (in_i16 _); [discriminate |]. injection H as <-. repeat split; reflexivity.
Qed.
Print Assumptions C02_arith_error.

Theorem C02_divide_type : forall l r v tl tr, op_divide l r = Ok v -> val_type l = Some tl -> val_type r = Some tr ->
  val_type v = Some (wider TSng (wider tl tr)).
Proof.
  intros l r v tl tr H Hl Hr. unfold op_divide in H.
  destruct l, r; cbn in *; try discriminate; injection Hl as <-; injection Hr as <-; injection H as <-; reflexivity.
Qed.
Print Assumptions C02_divide_type.

(* \ MOD AND OR XOR IMP EQV work on 16-bit Integers and give an Integer *)
Theorem C02_integer_ops_type : forall l r v,
  (op_divint l r = Ok v \/ op_remainder l r = Ok v \/ op_and l r = Ok v \/ op_or l r = Ok v \/ op_xor l r = Ok v
   \/ op_imp l r = Ok v \/ op_eqv l r = Ok v) ->
  val_type v = Some TInt /\ (exists a b, to_i16 l = Ok a /\ to_i16 r = Ok b).
Proof.
  intros l r v H. unfold op_divint, op_remainder, op_and, op_or, op_xor, op_imp, op_eqv, logic2 in H.
  assert (Hgen : forall (k : Z -> Z -> res val), (forall a b w, k a b = Ok w -> val_type w = Some TInt) ->
            (do a <- to_i16 l; do b <- to_i16 r; k a b) = Ok v ->
            val_type v = Some TInt /\ (exists a b, to_i16 l = Ok a /\ to_i16 r = Ok b)).
  { intros k Hk E. destruct (to_i16 l) as [a | | |]; cbn in E; try discriminate.
    destruct (to_i16 r) as [b | | |]; cbn in E; try discriminate. split; [exact (Hk a b v E) | exists a, b; split; reflexivity]. }
  destruct H as [H | [H | [H | [H | [H | [H | H]]]]]]; revert H; apply Hgen; intros a b w E.
  3-7: injection E as <-; reflexivity.
  - destruct (b =? 0)%Z; [discriminate |]. unfold chk in E. destruct (in_i16 _); [injection E as <-; reflexivity | discriminate].
  - destruct (b =? 0)%Z; [discriminate | injection E as <-; reflexivity].
Qed.
Print Assumptions C02_integer_ops_type.

Theorem C02_not_type : forall x v, op_not x = Ok v -> val_type v = Some TInt.
Proof. intros x v H. unfold op_not in H. apply bind_ok in H. destruct H as (a & _ & H). injection H as <-. reflexivity. Qed.
Print Assumptions C02_not_type.

Theorem C02_convert_errors : forall t v e, convert_to t v = Err e ->
  ecode e = E_Overflow \/ ecode e = E_TypeMismatch \/ ecode e = E_StringTooLong.
Proof.
  intros t v e. destruct t; [rewrite convert_to_int | rewrite convert_to_sng | rewrite convert_to_dbl |]; intros H.
  1-3: apply bind_err in H; destruct H as [H | (x & _ & H)]; [| discriminate].
  - destruct (to_i16_err _ _ H) as [E | E]; tauto.
  - right; left. exact (to_f32_err _ _ H).
  - right; left. exact (to_f64_err _ _ H).
  - unfold convert_to in H. destruct v as [s | | | | |]; try (injection H as <-; right; left; reflexivity).
    destruct (255 <? lenN s); [injection H as <-; right; right; reflexivity | discriminate].
Qed.
Print Assumptions C02_convert_errors.

(* the parser builds the tree the table prescribes (Proofs/ParseExpr.v) *)
From BL Require Import Lang.Ast Proofs.ParseExpr.
From Coq Require Import String.
Local Open Scope string_scope.

(* more fuel (the model's stand-in for the Rust call stack) never changes a parse result *)
Theorem C02_fuel_monotone : forall f,
  (forall vm p, le_ok (descend f vm p) (descend (S f) vm p))
  /\ (forall vm p lhs, le_ok (climb f vm p lhs) (climb (S f) vm p lhs))
  /\ (forall vm, le_ok (expr_list f vm) (expr_list (S f) vm)).
Proof. exact fuel_mono. Qed.
Print Assumptions C02_fuel_monotone.

(* the invariant of precedence climbing, for every expression tree over identifiers, literals, array elements / calls,
   unary minus, NOT and the eighteen binary operators, at every nesting depth: the parser in front of the tokens of x (operands that bind at least
   as strongly as the position demands) behaves like its loop holding the tree of x *)
Theorem C02_precedence_climbing : forall x, wf x ->
  forall p n rest st, p < n -> n <= eprec x -> lead_le n rest -> rep st (raw x ++ rest) -> like_climb p st x rest.
Proof. exact key. Qed.
Print Assumptions C02_precedence_climbing.

(* the parser, in front of the minimally parenthesised rendering of x (blank tokens may sit anywhere among its tokens:
   `rep st ts` speaks of the visible tokens) followed by anything that cannot continue an expression, returns the tree of x -- columns aside -- and stands in front of what follows *)
Theorem C02_parser_builds_the_tree : forall x rest st, wf x -> rep st (raw x ++ rest) -> lead_le 0 rest ->
  exists f e st', descend f [] 0 st = Ok (e, st') /\ strip e = tree x /\ rep st' rest
                  /\ forall g, (f <= g)%nat -> descend g [] 0 st = Ok (e, st').
Proof.
  intros x rest st W Hr Hl. destruct (operand_parses x 0 rest st W (eprec_pos x W) Hl Hr) as (f & e & st' & Hd & Hs & Hr').
  exists f, e, st'. split; [exact Hd | split; [exact Hs | split; [exact Hr' |]]]. intros g Hg. exact (mono_d f g _ _ Hg _ _ Hd).
Qed.
Print Assumptions C02_parser_builds_the_tree.

Theorem C02_expression_parses_rendering : forall x rest toks cs ce, wf x -> forallb clean rest = true -> lead_le 0 rest ->
  no_rem toks = true -> vis toks = (raw x ++ rest)%list ->
  exists f e st', expression f (mkP toks None false cs ce) = Ok (e, st') /\ strip e = tree x /\ rep st' rest.
Proof.
  intros x rest toks cs ce W Hc Hl Hn Hv.
  destruct (C02_parser_builds_the_tree x rest _ W (rep_start toks cs ce x rest Hc Hn Hv) Hl) as (f & e & st' & Hd & Hs & Hr & _).
  exists f, e, st'. split; [exact Hd | split; [exact Hs | exact Hr]].
Qed.
Print Assumptions C02_expression_parses_rendering.

(* blanks between the tokens -- any number, anywhere (`vis` drops them) -- do not change the tree *)
Theorem C02_blanks_do_not_matter : forall x rest toks toks' cs ce cs' ce', wf x -> forallb clean rest = true -> lead_le 0 rest ->
  no_rem toks = true -> no_rem toks' = true -> vis toks = (raw x ++ rest)%list -> vis toks' = (raw x ++ rest)%list ->
  exists f e st e' st', expression f (mkP toks None false cs ce) = Ok (e, st) /\ expression f (mkP toks' None false cs' ce') = Ok (e', st')
                        /\ strip e = strip e'.
Proof.
  intros x rest toks toks' cs ce cs' ce' W Hc Hl Hn Hn' Hv Hv'.
  destruct (C02_parser_builds_the_tree x rest _ W (rep_start toks cs ce x rest Hc Hn Hv) Hl) as (f & e & st & _ & Hs & _ & Hm).
  destruct (C02_parser_builds_the_tree x rest _ W (rep_start toks' cs' ce' x rest Hc Hn' Hv') Hl) as (f' & e' & st' & _ & Hs' & _ & Hm').
  exists (Nat.max f f'), e, st, e', st'. split; [exact (Hm _ (Nat.le_max_l f f')) |]. split; [exact (Hm' _ (Nat.le_max_r f f')) |].
  rewrite Hs, Hs'. reflexivity.
Qed.
Print Assumptions C02_blanks_do_not_matter.

(* the scanner's tokens for A-B-C, A-(B-C), -2^2, NOT A=B (behind NOT and a blank), A+B*C, (A+B)*C and A(2,B+2)*FNX(C)-D() are the
   renderings of the trees one expects *)
Theorem C02_rendering_examples :
  Lex.lex (s2l "A-B-C") = Ok (None, raw (ABin OMinus (ABin OMinus idA idB) idC))
  /\ Lex.lex (s2l "A-(B-C)") = Ok (None, raw (ABin OMinus idA (ABin OMinus idB idC)))
  /\ Lex.lex (s2l "-2^2") = Ok (None, raw (ANeg (ABin OCaret two two)))
  /\ Lex.lex (s2l "NOT A=B") = Ok (None, TOp ONot :: TWs 1 :: raw (ABin OEq idA idB))
  /\ Lex.lex (s2l "A+B*C") = Ok (None, raw (ABin OPlus idA (ABin OMul idB idC)))
  /\ Lex.lex (s2l "(A+B)*C") = Ok (None, raw (ABin OMul (ABin OPlus idA idB) idC))
  /\ Lex.lex (s2l "A(2,B+2)*FNX(C)-D()") = Ok (None, raw (ABin OMinus (ABin OMul (ACall (IPlain [65]) [two; ABin OPlus idB two]) (ACall (IPlain [70; 78; 88]) [idC]))
                                                                             (ACall (IPlain [68]) [])))
  /\ wf (ABin OMinus (ABin OMinus idA idB) idC) /\ wf (ANeg (ABin OCaret two two))
  /\ wf (ABin OMul (ACall (IPlain [65]) [two; ABin OPlus idB two]) (ACall (IPlain [70; 78; 88]) [idC])).
Proof. exact renderings. Qed.
Print Assumptions C02_rendering_examples.

(* the model's precedence tables are the source's (Gen/SourceTables.v is regenerated from /repo/src/lang/parse.rs by
   tools/tables.py on every run; Proofs/SourceTables.v) *)
From Coq Require Import List.
From BL Require Import Gen.SourceTables Proofs.SourceTables.

Theorem C02_precedences_are_the_sources :
  map (fun p => unary_prec (fst p)) src_unary_prec = map snd src_unary_prec /\ (forall o, In o (map fst src_unary_prec))
  /\ map (fun p => binary_prec (fst p)) src_binary_prec = map snd src_binary_prec /\ (forall o, In o (map fst src_binary_prec)).
Proof. exact precedences_are_the_sources. Qed.
Print Assumptions C02_precedences_are_the_sources.
