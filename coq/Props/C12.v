(* C12 -- RUN, CLEAR and NEW reset state completely. *)
From BL Require Import Base.Prelude Mach.Val Mach.Var Mach.Compile Mach.Listing Mach.Runtime.
Local Open Scope N_scope.

(* CLEAR leaves variables, arrays, type defaults, user functions, the value stack, the DATA position
   and the continuation exactly as in Runtime::default() -- one conjunct per field *)
Theorem C12_clear_resets : forall (O : oracle) r,
  let r' := fst (do_clear O r) in
  r_vars r' = r_vars rt_default /\ r_fns r' = r_fns rt_default /\ r_stack r' = r_stack rt_default
  /\ r_slen r' = r_slen rt_default /\ l_data_pos (pg_link (r_prog r')) = 0 /\ r_cont r' = r_cont rt_default.
Proof. intros O r. cbn. repeat split; reflexivity. Qed.
Print Assumptions C12_clear_resets.

(* ... and touches nothing else that a run can read: program, listing, trace mode, column *)
Theorem C12_clear_frame : forall (O : oracle) r,
  let r' := fst (do_clear O r) in
  l_ops (pg_link (r_prog r')) = l_ops (pg_link (r_prog r)) /\ l_data (pg_link (r_prog r')) = l_data (pg_link (r_prog r))
  /\ r_listing r' = r_listing r /\ r_tron r' = r_tron r /\ r_col r' = r_col r /\ r_pc r' = r_pc r
  /\ r_entry r' = r_entry r /\ r_dirty r' = r_dirty r.
Proof. intros O r. cbn. repeat split; reflexivity. Qed.
Print Assumptions C12_clear_frame.

(* NEW additionally empties the listing, leaves trace mode off and forces recompilation *)
Theorem C12_new : forall (O : oracle) r,
  let r' := fst (do_new O r) in
  ls_lines (r_listing r') = [] /\ r_tron r' = false /\ r_dirty r' = true /\ r_state r' = StStopped
  /\ r_vars r' = vars_empty /\ r_fns r' = [] /\ r_stack r' = [].
Proof. intros O r. cbn. repeat split; reflexivity. Qed.
Print Assumptions C12_new.

(* RUN compiles to CLEAR followed by a jump to the line (or to the start of the program) *)
Theorem C12_run_is_clear_then_jump : forall c n l, lenN (l_ops l) + 2 <= MAX_POOL ->
  l_ops (fst (l_push_run c n l)) = l_ops l ++ [OpClear; OpJump 0] /\ snd (l_push_run c n l) = Ok tt.
Proof.
  intros c n l H. unfold l_push_run, lbind, l_push, set_ops. cbn.
  assert (E1 : (MAX_POOL <? lenN (l_ops l ++ [OpClear])) = false).
  { apply N.ltb_ge. unfold lenN in *. rewrite app_length. cbn [length]. lia. }
  assert (E2 : (MAX_POOL <? lenN ((l_ops l ++ [OpClear]) ++ [OpJump 0])) = false).
  { apply N.ltb_ge. unfold lenN in *. rewrite !app_length. cbn [length]. lia. }
  rewrite E1. destruct n as [k |]; cbn; rewrite E2, <- app_assoc; split; reflexivity.
Qed.
Print Assumptions C12_run_is_clear_then_jump.

(* CLEAR forgets: two machines that agree on everything static (listing, compiled code and DATA, program counter, trace,
   cursor and run state) and on their position in the entropy stream are identical after CLEAR, whatever their variables,
   arrays, DEFtype settings, user functions, value stacks, DATA pointers, random-number states and CONT slots were.  RUN is
   CLEAR followed by a jump (above), so what a program does from RUN on cannot depend on any of those. *)
From BL Require Import Proofs.Swap.
Theorem C12_clear_forgets : forall O r r', static_eq r r' -> fst (do_clear O r) = fst (do_clear O r').
Proof. exact clear_forgets. Qed.
Print Assumptions C12_clear_forgets.

(* ... and it does not: from the CLEAR that opens RUN's code on, the fetch loop produces the same states and the same
   events on any two machines that agree on the static part, for any number of instructions (tracing either off, or the
   CLEAR sitting in direct-mode code, which is where RUN puts it) *)
From BL Require Import Proofs.Slicing Proofs.RunForgets.
Theorem C12_run_forgets : forall O n h r r', static_eq r r' -> nthN (l_ops (pg_link (r_prog r))) (r_pc r) = Some OpClear ->
  (r_tron r = false \/ prog_line_for r (r_pc r) = None) ->
  exec_loop_x O (S n) h r = exec_loop_x O (S n) h r'.
Proof. exact run_forgets. Qed.
Print Assumptions C12_run_forgets.

(* two machines with different dynamic parts meet the premises *)
Theorem C12_run_forgets_applies :
  static_eq demo_machine demo_machine_used /\ demo_machine <> demo_machine_used
  /\ nthN (l_ops (pg_link (r_prog demo_machine))) (r_pc demo_machine) = Some OpClear /\ r_tron demo_machine = false.
Proof. exact run_forgets_premises. Qed.
Print Assumptions C12_run_forgets_applies.
