(* C18 -- pools are bounded and completed statements leave nothing behind (Proofs/Vars.v, Proofs/Reloc.v, Proofs/StackBound.v, Proofs/Flow3.v, Proofs/CallWidth.v). *)
From BL Require Import Base.Prelude Mach.Val Mach.Compile Mach.Runtime.
Local Open Scope N_scope.

(* a push that would take the value stack past 65535 entries reports OUT OF MEMORY *)
Theorem C18_push_bounded : forall r v r' x, push v r = (r', x) ->
  r_slen r' = r_slen r + 1 /\ (x = Ok tt <-> r_slen r' <= 65535) .
Proof.
  intros r v r' x H. unfold push in H. injection H as <- <-. cbn. split; [reflexivity |].
  unfold MAX_POOL. destruct (N.ltb_spec 65535 (r_slen r + 1)); split; intros H'; try lia; try discriminate; reflexivity.
Qed.
Print Assumptions C18_push_bounded.

(* SWAP leaves two values on the stack, whether it succeeds or not: the same two in the same order when the
   types agree (the two POPs that follow then exchange them), and in exchanged order on a type mismatch (so
   that the two POPs, if the program is continued, store each value back into its own variable) *)
Theorem C18_swap_neutral : forall r a b rest, r_stack r = b :: a :: rest -> r_slen r = lenN (r_stack r) -> r_slen r <= 65535 ->
  r_stack (fst (do_swap r)) = (if same_kind a b then b :: a :: rest else a :: b :: rest)
  /\ r_slen (fst (do_swap r)) = r_slen r.
Proof.
  intros r a b rest Hs Hl Hb. unfold do_swap, pop2, rbind, pop. rewrite Hs. cbn.
  assert (Hlen : r_slen r = lenN rest + 2).
  { rewrite Hl, Hs. unfold lenN. cbn [List.length]. lia. }
  assert (E1 : (MAX_POOL <? r_slen r - 1 - 1 + 1) = false) by (apply N.ltb_ge; unfold MAX_POOL; lia).
  assert (E2 : (MAX_POOL <? r_slen r - 1 - 1 + 1 + 1) = false) by (apply N.ltb_ge; unfold MAX_POOL; lia).
  destruct (same_kind a b); unfold push, rbind; cbn; rewrite ?E1; cbn; rewrite ?E2; cbn; (split; [reflexivity | lia]).
Qed.
Print Assumptions C18_swap_neutral.

From BL Require Import Mach.Var Proofs.Vars Proofs.Reloc.

(* the pool never holds more than 65536 entries: a new entry is refused beyond that, replacing one never grows it *)
Theorem C18_variable_pool_bounded : forall vs k v vs', lenN (vs_vars vs) <= 65536 -> update_val vs k v = Ok vs' -> lenN (vs_vars vs') <= 65536.
Proof.
  intros vs k v vs' Hb H. apply update_val_inv in H. destruct H as [-> Hfree]. unfold lenN in *. cbn [vs_vars].
  pose proof (remove_len k (vs_vars vs)). destruct (is_default v); [lia |]. cbn [alist_set length].
  destruct (alist_get k (vs_vars vs)) eqn:Eg; [pose proof (remove_len_lt _ _ _ Eg) | specialize (Hfree eq_refl eq_refl)]; lia.
Qed.
Print Assumptions C18_variable_pool_bounded.

(* storing 0 or "" frees the slot: the key is gone and the pool did not grow *)
Theorem C18_default_frees_slot : forall vs k v vs', is_default v = true -> update_val vs k v = Ok vs' ->
  alist_get k (vs_vars vs') = None /\ (length (vs_vars vs') <= length (vs_vars vs))%nat.
Proof.
  intros vs k v vs' Hd H. apply update_val_inv in H. destruct H as [-> _]. rewrite Hd. cbn [vs_vars].
  split; [rewrite alist_get_remove, str_eqb_refl; reflexivity | apply remove_len].
Qed.
Print Assumptions C18_default_frees_slot.

(* the code pool: an instruction beyond 65535 is OUT OF MEMORY; the DATA pool likewise *)
Theorem C18_code_pool_bounded : forall op l, snd (l_push op l) = Ok tt <-> lenN (l_ops l) + 1 <= 65535.
Proof. intros op l. exact (pool_takes_one (l_ops l) op oom). Qed.
Print Assumptions C18_code_pool_bounded.

Theorem C18_data_pool_bounded : forall v l, snd (l_push_data v l) = Ok tt <-> lenN (l_data l) + 1 <= 65535.
Proof. intros v l. exact (pool_takes_one (l_data l) v oom). Qed.
Print Assumptions C18_data_pool_bounded.

From BL Require Import Proofs.StoreRt Proofs.StackBound.

Theorem C18_reachable_stack_bounded : forall O r, reachable O r -> r_slen r = lenN (r_stack r) /\ lenN (r_stack r) <= 65535.
Proof.
  intros O r Hr. assert (H : SI r).
  { induction Hr as [| r s r' b _ IH E | r n r' e _ IH E | r _ IH | r hold _ IH | r _ IH].
    - unfold SI. cbn. unfold lenN, MAX_POOL. cbn. split; [reflexivity | lia].
    - exact (bound_enter O _ _ _ _ IH E).
    - exact (sb_rt_execute O _ _ _ _ IH E).
    - exact (sb_rt_interrupt _ IH).
    - destruct hold; exact IH.
    - exact IH. }
  destruct H as [Ha Hb]. split; [exact Ha | rewrite <- Ha; exact Hb].
Qed.
Print Assumptions C18_reachable_stack_bounded.

Theorem C18_one_instruction_bounded : forall O h op r, SI r ->
  match snd (exec_op O h op r) with
  | Ok _ => lenN (r_stack (fst (exec_op O h op r))) <= 65535
  | _ => lenN (r_stack (fst (exec_op O h op r))) <= 65536
  end.
Proof.
  intros O h op r H. pose proof (sb_exec_op O h op r H) as Hx.
  destruct (snd (exec_op O h op r)); destruct Hx as [Ha Hb]; rewrite <- Ha; unfold MAX_POOL in Hb; lia.
Qed.
Print Assumptions C18_one_instruction_bounded.

From BL Require Import Lang.Ast Spec.Sem Proofs.Slicing Proofs.Flow Proofs.Flow2 Proofs.Flow3.

(* for programs of LET, PRINT, GOTO, ON..GOTO and END: whenever the reference semantics completes a statement and passes
   control on, the VM -- after the corresponding instructions, whatever the budgets of the calls -- has a value stack exactly
   as long as before the statement *)
Theorem C18_statement_leaves_stack : forall O srcl pls lo sl,
  Forall2 lmatch srcl pls -> ascending pls lo -> last_is_end (prog_ops pls) = true -> last_nonempty pls ->
  sl + lenN (prog_ops pls) <= MAX_POOL ->
  forall sb n sd s sr sa pb pd p pr pa st r st2 k',
  srcl = sb ++ (n, sd ++ s :: sr) :: sa -> pls = pb ++ (n, pd ++ p :: pr) :: pa ->
  Forall2 lmatch sb pb -> Forall2 gstmt sd pd -> gstmt s p -> Forall2 gstmt sr pr -> Forall2 lmatch sa pa ->
  r_pc r = lenN (prog_ops pb) + lenN (flat_map pc_ops pd) -> sfacts pls sl st r ->
  exec O srcl 200 n s (tag_line n sr, n) st = (st2, Go k') ->
  exists outs r2, vm_steps O r outs r2 /\ r_slen r2 = r_slen r.
Proof.
  intros O srcl pls lo sl Hm Ha He Hn Hfit sb n sd s sr sa pb pd p pr pa st r st2 k' Es Ep Hb Hd Hs Hr Hsa Hpc Hf Hex.
  pose proof (at_pos_intro srcl pls sb n sd (s :: sr) sa pb pd (p :: pr) pa Es Ep Hb Hd (Forall2_cons s p Hs Hr) Hsa) as Hpos.
  rewrite <- Hpc in Hpos. pose proof (stmt_step O srcl pls lo sl Hm Ha He Hn Hfit n s (tag_line n sr) st r Hpos Hf) as H. rewrite Hex in H.
  destruct H as (outs & r2 & Hsteps & _ & (_ & _ & (_ & _ & _ & _ & Hsl2 & _))). exists outs, r2. split; [exact Hsteps |].
  destruct Hf as (_ & _ & _ & _ & Hsl & _). rewrite Hsl2, Hsl. reflexivity.
Qed.
Print Assumptions C18_statement_leaves_stack.

From BL Require Import Mach.Func Drv.Driver Proofs.CallWidth.

(* whichever built-in is called: when the handler completes, the entries the call owns -- as many as the arity table the
   code generator consults says, the count literal included when the arity is a range -- are gone, one result is in their
   place, and everything beneath is what it was.  Nothing stays behind, nothing beneath is eaten. *)
Theorem C18_builtin_replaces_its_arguments : forall O name r r',
  WF r -> do_builtin O name r = (r', Ok None) ->
  call_width name (r_stack r) <= lenN (r_stack r) /\ WF r'
  /\ exists v, r_stack r' = v :: skipnN (call_width name (r_stack r)) (r_stack r).
Proof. exact builtin_replaces_its_arguments. Qed.
Print Assumptions C18_builtin_replaces_its_arguments.

(* the entries a call owns are the ones its compiled code pushed: len argument values and, for a range of arities, the count *)
Theorem C18_width_is_what_the_call_pushed : forall name lo hi len s,
  builtin_arity name = Some (lo, hi) -> in_range (lo, hi) len = true ->
  call_width name ((if lo =? hi then [] else [VInt (Z.of_N len)]) ++ s) = len + (if lo =? hi then 0 else 1).
Proof.
  intros name lo hi len s Ha Hr. unfold call_width. rewrite Ha. unfold in_range in Hr. cbn [fst snd] in Hr.
  destruct (N.eqb_spec lo hi) as [-> |]; [| cbn [app]; lia].
  apply andb_prop in Hr. destruct Hr as [H1 H2]. apply N.leb_le in H1. apply N.leb_le in H2. lia.
Qed.
Print Assumptions C18_width_is_what_the_call_pushed.

Example C18_pos_calls :
  WF (pos_machine [VInt 1; VSng 0]) /\ WF (pos_machine [VInt 0])
  /\ (let '(r', x) := do_builtin dummy_oracle pos_name (pos_machine [VInt 1; VSng 0]) in x = Ok None /\ r_stack r' = [VInt 0; VRet 5])
  /\ (let '(r', x) := do_builtin dummy_oracle pos_name (pos_machine [VInt 0]) in x = Ok None /\ r_stack r' = [VInt 0; VRet 5]).
Proof. exact pos_calls. Qed.

(* the arity table itself is the source's: Gen/SourceTables.v is regenerated from Function::opcode_and_arity by tools/tables.py
   on every run *)
From BL Require Import Gen.SourceTables Proofs.SourceTables.
Theorem C18_arities_are_the_sources : forall name, builtin_arity name = assoc_arity name src_arity.
Proof. exact arities_are_the_sources. Qed.
Print Assumptions C18_arities_are_the_sources.

(* the pool size and the head-room of Stack::is_full are the source's (regenerated by tools/tables.py on every run) *)
Theorem C18_pool_limits_are_the_sources :
  MAX_POOL = src_max_pool /\ forall r, stack_is_full r = (src_max_pool - src_full_headroom <? r_slen r).
Proof. exact (conj (proj1 (proj2 (proj2 limits_are_the_sources))) (proj2 (proj2 (proj2 limits_are_the_sources)))). Qed.
Print Assumptions C18_pool_limits_are_the_sources.
