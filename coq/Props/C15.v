(* C15 -- the program store is an ordered map with exact LIST / DELETE ranges.
   The lemmas about the list of lines are in Proofs/Store.v, those about reachable states in Proofs/StoreRt.v.
   `get ls n` is the abstract map behind the list of lines, `asc ls` says the line numbers ascend strictly (the
   BTreeMap's order).  Last: the operands of LIST and DELETE (Proofs/ParseRange.v), and the line limits
   (Proofs/SourceTables.v). *)
From BL Require Import Base.Prelude Mach.Val Lang.Token Lang.Lex Mach.Compile Mach.Listing Mach.Runtime Proofs.Store Proofs.StoreRt.
From Coq Require Import String.
Local Open Scope N_scope.

Theorem C15_insert_lookup : forall ls n t, lines_has (lines_insert ls n t) n = true.
Proof.
  intros ls n t. unfold lines_has. induction ls as [| [m u] r IH]; cbn; [rewrite N.eqb_refl; reflexivity |].
  destruct (N.ltb_spec n m); cbn; [rewrite N.eqb_refl; reflexivity |].
  destruct (N.eqb_spec n m) as [-> | Hne]; cbn; [rewrite N.eqb_refl; reflexivity |].
  destruct (N.eqb_spec m n); [congruence | exact IH].
Qed.
Print Assumptions C15_insert_lookup.

(* a numbered line inserts or replaces, and nothing else changes *)
Theorem C15_insert : forall ls n t k, asc ls ->
  asc (lines_insert ls n t) /\ Store.get (lines_insert ls n t) k = if n =? k then Some t else Store.get ls k.
Proof. intros ls n t k H. split; [exact (insert_asc ls n t H) | exact (get_insert ls n t k H)]. Qed.
Print Assumptions C15_insert.

(* a bare number deletes, and nothing else changes *)
Theorem C15_remove : forall ls n k, asc ls ->
  asc (lines_remove ls n) /\ Store.get (lines_remove ls n) k = if n =? k then None else Store.get ls k.
Proof. intros ls n k H. split; [exact (remove_asc ls n H) | exact (get_remove ls n k)]. Qed.
Print Assumptions C15_remove.

(* DELETE a-b removes exactly the lines inside the inclusive range *)
Theorem C15_delete_range : forall ls a b k, asc ls ->
  asc (delete_range ls a b) /\ Store.get (delete_range ls a b) k = if in_rng a b k then None else Store.get ls k.
Proof. intros ls a b k H. split; [exact (filter_asc _ ls H) | exact (get_delete_range ls a b k)]. Qed.
Print Assumptions C15_delete_range.

(* LIST a-b: iterating Listing::list_line as the runtime does yields exactly the lines of the inclusive range, ascending *)
Theorem C15_list_range : forall fuel l a b, asc (ls_lines l) -> (forall e, In e (ls_lines l) -> fst e <= 65529) ->
  a <= b -> (List.length (in_range_lines (ls_lines l) a b) < fuel)%nat ->
  list_texts fuel l a b = Ok (map text_of (in_range_lines (ls_lines l) a b)).
Proof. intros. rewrite list_texts_all, list_all_spec by assumption. reflexivity. Qed.
Print Assumptions C15_list_range.

(* membership in the abstract map and in the list coincide on ascending lists *)
Theorem C15_get_In : forall ls n t, asc ls -> (Store.get ls n = Some t <-> In (n, t) ls).
Proof. intros ls n t H. split; [apply get_In | apply In_get; exact H]. Qed.
Print Assumptions C15_get_In.

(* in every state the public API can reach (enter, execute, interrupt, snapshots) the stored lines ascend strictly *)
Theorem C15_reachable_sorted : forall O r, reachable O r -> asc (ls_lines (r_listing r)).
Proof. exact reachable_sorted. Qed.
Print Assumptions C15_reachable_sorted.

From BL Require Proofs.LexTotal.
(* a numbered line, in any reachable state that is not waiting for a reply: the number is at most 65529, the line
   is inserted / replaced (or deleted when nothing follows the number), and no other line changes *)
Theorem C15_numbered_line_effect : forall O r s n toks r' b k, reachable O r ->
  (match r_state r with StInput | StInkey => False | _ => True end) ->
  utf8_len s <= MAX_LINE_LEN -> lex s = Ok (Some n, toks) -> rt_enter O r s = Ok (r', b) ->
  n <= 65529 /\
  Store.get (ls_lines (r_listing r')) k =
    if n =? k then (match toks with [] => None | _ => Some toks end) else Store.get (ls_lines (r_listing r)) k.
Proof.
  intros O r s n toks r' b k Hr Hst Hlen Hlex E. split; [exact (LexTotal.lex_line_number_bound _ _ _ Hlex) |].
  pose proof (reachable_sorted O r Hr) as Hs. unfold Sorted in Hs.
  unfold rt_enter in E. destruct (N.ltb_spec MAX_LINE_LEN (utf8_len s)); [lia |].
  unfold line_new in E. rewrite Hlex in E. cbn [bind fst snd] in E.
  assert (E2 : (do r'0 <- enter_indirect r (Some n, toks); Ok (r'0, false)) = Ok (r', b))
    by (destruct (r_state r); try contradiction; exact E).
  unfold enter_indirect in E2. cbn [fst snd] in E2. destruct toks as [| t ts]; cbn [bind] in E2; injection E2 as <- _; cbn.
  - apply get_remove.
  - apply get_insert. exact Hs.
Qed.
Print Assumptions C15_numbered_line_effect.

Example C15_witness :
  let l := mkListing [(10, [TWord WEnd]); (20, [TWord WStop]); (30, [TWord WEnd])] [] [] in
  asc (ls_lines l) /\ list_texts 5 l 15 30 = Ok [s2l "20 STOP"%string; s2l "30 END"%string].
Proof. split; [repeat constructor | vm_compute; reflexivity]. Qed.

From BL Require Import Lang.Ast Lang.Parse Proofs.ParseExpr Proofs.ParseRange.

(* the range parser, in front of: nothing that is a number or a dash / n / n- / -m / n-m, returns the documented bounds
   (`bound e n`: the operand e is the line-number literal n, columns aside) and stands behind what it read *)
Theorem C15_range_bare : forall st ts, rep st ts -> not_number ts -> not_dash ts ->
  exists a b st', line_number_range st = Ok ((a, b), st') /\ bound a 0 /\ bound b 65529 /\ rep st' ts.
Proof. intros st ts Hr Hn. exact (range_one st None ts ts Hr (conj eq_refl Hn)). Qed.
Print Assumptions C15_range_bare.

Theorem C15_range_single : forall st t n r, rep st (t :: r) -> is_lnum t n -> not_dash r ->
  exists a b st', line_number_range st = Ok ((a, b), st') /\ bound a n /\ bound b n /\ rep st' r.
Proof. intros st t n r Hr Ht. exact (range_one st (Some n) _ r Hr (ex_intro _ t (conj eq_refl Ht))). Qed.
Print Assumptions C15_range_single.

Theorem C15_range_from : forall st t n r, rep st (t :: TOp OMinus :: r) -> is_lnum t n -> not_number r ->
  exists a b st', line_number_range st = Ok ((a, b), st') /\ bound a n /\ bound b 65529 /\ rep st' r.
Proof.
  intros st t n r Hr Ht Hn. pose proof (range_two st (Some n) _ r None r Hr (ex_intro _ t (conj eq_refl Ht)) (conj eq_refl Hn)) as H.
  cbv beta iota zeta in H. rewrite (proj2 (N.ltb_ge 65529 n) (proj2 Ht)) in H. exact H.
Qed.
Print Assumptions C15_range_from.

Theorem C15_range_to : forall st t m r, rep st (TOp OMinus :: t :: r) -> is_lnum t m ->
  exists a b st', line_number_range st = Ok ((a, b), st') /\ bound a 0 /\ bound b m /\ rep st' r.
Proof.
  intros st t m r Hr Ht. pose proof (range_two st None _ (t :: r) (Some m) r Hr (conj eq_refl I) (ex_intro _ t (conj eq_refl Ht))) as H.
  cbv beta iota zeta in H. rewrite (proj2 (N.ltb_ge m 0) (N.le_0_l m)) in H. exact H.
Qed.
Print Assumptions C15_range_to.

(* n-m, and an inverted range is refused before anything runs *)
Theorem C15_range_both : forall st t1 n t2 m r, rep st (t1 :: TOp OMinus :: t2 :: r) -> is_lnum t1 n -> is_lnum t2 m ->
  if m <? n then exists e, line_number_range st = Err e /\ ecode e = E_UndefinedLine
  else exists a b st', line_number_range st = Ok ((a, b), st') /\ bound a n /\ bound b m /\ rep st' r.
Proof.
  intros st t1 n t2 m r Hr Ht1 Ht2.
  exact (range_two st (Some n) _ _ (Some m) r Hr (ex_intro _ t1 (conj eq_refl Ht1)) (ex_intro _ t2 (conj eq_refl Ht2))).
Qed.
Print Assumptions C15_range_both.

Theorem C15_range_tokens :
  Lex.lex (s2l "LIST 120-300") = Ok (None, [TWord WList; TWs 1; TLit (LInt (s2l "120")); TOp OMinus; TLit (LInt (s2l "300"))])
  /\ is_lnum (TLit (LInt (s2l "120"))) 120 /\ is_lnum (TLit (LInt (s2l "300"))) 300.
Proof. exact range_tokens. Qed.
Print Assumptions C15_range_tokens.

(* the largest line number and the longest line are the source's (coq/Gen/SourceTables.v is regenerated from /repo/src by
   tools/tables.py on every run; Proofs/SourceTables.v) *)
From BL Require Import Gen.SourceTables Proofs.SourceTables.
Theorem C15_line_limits_are_the_sources : src_max_line_number = 65529 /\ MAX_LINE_LEN = src_max_line_len.
Proof. exact (conj (proj1 limits_are_the_sources) (proj1 (proj2 limits_are_the_sources))). Qed.
Print Assumptions C15_line_limits_are_the_sources.
